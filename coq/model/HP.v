(* Model of series/_hp.py (constrained Hodrick-Prescott filter).  NO proofs here.

   One model text over the abstract matrix interface [MatOps] (lib/MxC14.v):
     - instantiated on MathComp matrices over a realFieldType in proofs/HPProofs.v
       (the theorems of props/C14.v are about THIS text);
     - instantiated on list (list bigQ) ([QOps]) and evaluated by vm_compute in the
       correspondence case files (exact rational arithmetic on the dyadic values of
       the doubles the implementation was run on).

   The stencil of K, the coefficients of the constraint rows and the default
   smoothing parameters come from gen/HPGen.v, regenerated from the source on every run.

   Oracles (arguments of the model, contracts in the theorems):
     [solve]  numpy.linalg.solve
     [lg] [ex] numpy.log / numpy.exp (log=True) *)
From Coq Require Import ZArith List Bool.
From Verif Require Import lib.MxC14 gen.HPGen.
Import ListNotations.

(* K[i, i+o] = c for (o, c) in the stencil; 0 elsewhere *)
Fixpoint stencil_coef (st : list (Z * Z)) (d : Z) : Z :=
  match st with
  | [] => 0%Z
  | (o, c) :: r => if Z.eqb d o then c else stencil_coef r d
  end.

Section HPModel.
Variable O : MatOps.
Notation S := (sc O).
Notation M := (mx O).
Variable solve : forall n, M n n -> M n 1 -> M n 1.

Definition sZ (z : Z) : S := s_ofZ O z.

Definition band (st : list (Z * Z)) (p n : nat) : M p n :=
  m_fun O p n (fun i j => sZ (stencil_coef st (Z.of_nat j - Z.of_nat i))).

(* _create_plain_filter_matrix *)
Definition hp_K (n : nat) : M (n - hp_rows_less) n := band hp_stencil (n - hp_rows_less) n.
Definition hp_F (n : nat) (lam : S) : M n n := m_scale O lam (m_mul O (m_tr O (hp_K n)) (hp_K n)).

(* one data variant on the filter span: None = missing observation (NaN) *)
Definition obs_at (data : list (option S)) (i : nat) : bool :=
  match nth i data None with Some _ => true | None => false end.
Definition val_at (data : list (option S)) (i : nat) : S :=
  match nth i data None with Some v => v | None => sZ 0 end.

(* _add_eye_for_observations: diag(observed) *)
Definition hp_E (n : nat) (data : list (option S)) : M n n :=
  m_fun O n n (fun i j => if Nat.eqb i j && obs_at data i then sZ 1 else sZ 0).

(* constraints: (position on the filter span, value) *)
Definition cpos (cs : list (nat * S)) (i : nat) : nat := fst (nth i cs (0%nat, sZ 0)).
Definition cval (cs : list (nat * S)) (i : nat) : S := snd (nth i cs (0%nat, sZ 0)).
Definition crows (st : list (Z * Z)) (n : nat) (cs : list (nat * S)) : M (length cs) n :=
  m_fun O (length cs) n (fun i j => sZ (stencil_coef st (Z.of_nat j - Z.of_nat (cpos cs i)))).
Definition cvec (cs : list (nat * S)) : M (length cs) 1 := m_fun O (length cs) 1 (fun i _ => cval cs i).

(* _add_level_constraints, _add_change_constraints: level rows first, then change rows *)
Definition hp_C (n : nat) (lc cc : list (nat * S)) : M (length lc + length cc) n :=
  m_col O (crows hp_level_row n lc) (crows hp_change_row n cc).
Definition hp_c (lc cc : list (nat * S)) : M (length lc + length cc) 1 := m_col O (cvec lc) (cvec cc).

(* the bordered matrix  [ F + E , C' ; C , 0 ]  and the right-hand side [ data with zeros at missing ; c ] *)
Definition hp_M (n : nat) (lam : S) (data : list (option S)) (lc cc : list (nat * S))
  : M (n + (length lc + length cc)) (n + (length lc + length cc)) :=
  m_block O (m_add O (hp_F n lam) (hp_E n data)) (m_tr O (hp_C n lc cc))
            (hp_C n lc cc) (m_fun O _ _ (fun _ _ => sZ 0)).
Definition hp_y0 (n : nat) (data : list (option S)) : M n 1 := m_fun O n 1 (fun i _ => val_at data i).
Definition hp_rhs (n : nat) (data : list (option S)) (lc cc : list (nat * S))
  : M (n + (length lc + length cc)) 1 := m_col O (hp_y0 n data) (hp_c lc cc).

(* filter_data (log=False): trend on every period of the filter span; gap where observed *)
Definition hp_trend_vec (n : nat) (lam : S) (data : list (option S)) (lc cc : list (nat * S)) : M n 1 :=
  m_up O (solve _ (hp_M n lam data lc cc) (hp_rhs n data lc cc)).
Definition hp_trend (n : nat) (lam : S) (data : list (option S)) (lc cc : list (nat * S)) (i : nat) : S :=
  m_get O (hp_trend_vec n lam data lc cc) i 0.
Definition hp_gap (n : nat) (lam : S) (data : list (option S)) (lc cc : list (nat * S)) (i : nat) : option S :=
  if obs_at data i then Some (s_sub O (val_at data i) (hp_trend n lam data lc cc i)) else None.

(* log=True: everything (data and constraint values) is logarithmized, the results are exponentiated *)
Section LogMode.
Variables lg ex : S -> S.
Definition log_data (data : list (option S)) : list (option S) := map (option_map lg) data.
Definition log_cs (cs : list (nat * S)) : list (nat * S) := map (fun p => (fst p, lg (snd p))) cs.
Definition mode_data (log : bool) (data : list (option S)) := if log then log_data data else data.
Definition mode_cs (log : bool) (cs : list (nat * S)) := if log then log_cs cs else cs.
Definition post (log : bool) (x : S) : S := if log then ex x else x.
Definition hp_trend_mode (log : bool) n lam data lc cc (i : nat) : S :=
  post log (hp_trend n lam (mode_data log data) (mode_cs log lc) (mode_cs log cc) i).
Definition hp_gap_mode (log : bool) n lam data lc cc (i : nat) : option S :=
  option_map (post log) (hp_gap n lam (mode_data log data) (mode_cs log lc) (mode_cs log cc) i).

(* ------------------------------------------------------------------ *)
(* _data_hpf: spans, constraint preparation, clipping                   *)
(* ------------------------------------------------------------------ *)

(* a series variant: start serial and values (None = NaN); value at a period *)
Definition at_period (start : Z) (vals : list (option S)) (t : Z) : option S :=
  if (t <? start)%Z then None else nth (Z.to_nat (t - start)) vals None.

Record hp_args := mkHpArgs {
  a_freq : Z;
  a_start : Z;                                   (* start serial of the input series *)
  a_vars : list (list (option S));               (* variants; every variant has the same length *)
  a_level : option (Z * list (option S));        (* start serial and first variant of the level series *)
  a_change : option (Z * list (option S));
  a_span : option (Z * Z);                       (* min and max serial of the requested span; None = own span *)
  a_smooth : option S;
  a_log : bool
}.

Definition series_len (a : hp_args) : Z := Z.of_nat (length (hd [] (a_vars a))).
Definition opt_min (o : option (Z * list (option S))) (z : Z) : Z :=
  match o with Some (s, _) => Z.min s z | None => z end.
Definition opt_max (o : option (Z * list (option S))) (z : Z) : Z :=
  match o with Some (s, v) => Z.max (s + Z.of_nat (length v) - 1) z | None => z end.
Definition span_of (a : hp_args) : Z * Z :=
  match a_span a with Some s => s | None => (a_start a, a_start a + series_len a - 1)%Z end.
(* get_encompassing_span(self, level, change, span) *)
Definition enc_start (a : hp_args) : Z :=
  opt_min (a_level a) (opt_min (a_change a) (Z.min (a_start a) (fst (span_of a)))).
Definition enc_end (a : hp_args) : Z :=
  opt_max (a_level a) (opt_max (a_change a) (Z.max (a_start a + series_len a - 1) (snd (span_of a)))).
Definition enc_len (a : hp_args) : nat := Z.to_nat (enc_end a - enc_start a + 1).

(* _prepare_constraints: positions and values of the non-missing entries on the filter span *)
Definition prepare (a : hp_args) (o : option (Z * list (option S))) : list (nat * S) :=
  match o with
  | None => []
  | Some (s, v) =>
      flat_map (fun i => match at_period s v (enc_start a + Z.of_nat i) with
                         | Some x => [(i, x)]
                         | None => []
                         end) (seq 0 (enc_len a))
  end.
(* _remove_first_date_change *)
Definition drop_first_date (cs : list (nat * S)) : list (nat * S) :=
  filter (fun p => negb (Nat.eqb (fst p) 0)) cs.

Definition auto_smooth (freq : Z) : Z :=
  match find (fun p => Z.eqb (fst p) freq) hp_auto_smooth with
  | Some p => snd p
  | None => hp_auto_smooth_default
  end.
Definition smooth_of (a : hp_args) : S :=
  match a_smooth a with Some l => l | None => sZ (auto_smooth (a_freq a)) end.

Definition enc_data (a : hp_args) (v : list (option S)) : list (option S) :=
  map (fun i => at_period (a_start a) v (enc_start a + Z.of_nat i)) (seq 0 (enc_len a)).

(* value of the returned trend / gap series, variant v, at period t (None = no value):
   the filter runs on the encompassing span, the requested span only selects rows *)
Definition in_span (a : hp_args) (t : Z) : bool :=
  (fst (span_of a) <=? t)%Z && (t <=? snd (span_of a))%Z.
Definition hpf_trend_at (a : hp_args) (v : list (option S)) (t : Z) : option S :=
  if in_span a t then
    Some (hp_trend_mode (a_log a) (enc_len a) (smooth_of a) (enc_data a v)
                        (prepare a (a_level a)) (drop_first_date (prepare a (a_change a)))
                        (Z.to_nat (t - enc_start a)))
  else None.
Definition hpf_gap_at (a : hp_args) (v : list (option S)) (t : Z) : option S :=
  if in_span a t then
    hp_gap_mode (a_log a) (enc_len a) (smooth_of a) (enc_data a v)
                (prepare a (a_level a)) (drop_first_date (prepare a (a_change a)))
                (Z.to_nat (t - enc_start a))
  else None.

(* the observable result on a window of periods [w, w + len): per variant, trend and gap.
   Same values as hpf_trend_at / hpf_gap_at (props/C14.v: C14_model_pointwise), with the
   linear system solved once per variant *)
Definition window (w : Z) (len : nat) : list Z := map (fun i => (w + Z.of_nat i)%Z) (seq 0 len).
Definition hpf_variant (a : hp_args) (w : Z) (len : nat) (v : list (option S))
  : list (option S) * list (option S) :=
  let log := a_log a in
  let data := mode_data log (enc_data a v) in
  let tv := hp_trend_vec (enc_len a) (smooth_of a) data
                         (mode_cs log (prepare a (a_level a)))
                         (mode_cs log (drop_first_date (prepare a (a_change a)))) in
  (map (fun t => if in_span a t then Some (post log (m_get O tv (Z.to_nat (t - enc_start a)) 0)) else None)
       (window w len),
   map (fun t => if in_span a t then
                   let i := Z.to_nat (t - enc_start a) in
                   if obs_at data i then Some (post log (s_sub O (val_at data i) (m_get O tv i 0))) else None
                 else None)
       (window w len)).
Definition hpf_model (a : hp_args) (w : Z) (len : nat) : list (list (option S) * list (option S)) :=
  map (hpf_variant a w len) (a_vars a).

End LogMode.
End HPModel.

(* ------------------------------------------------------------------ *)
(* executable instance                                                  *)
(* ------------------------------------------------------------------ *)
From Bignums Require Import BigQ.

Definition q_solve_oracle (n : nat) (A : qmat) (b : qmat) : qmat :=
  match q_solve_checked n A b with Some x => x | None => [] end.

(* numpy.log is a black box: the harness records its values on exactly the doubles that occur *)
Fixpoint q_lookup (t : list (bigQ * bigQ)) (x : bigQ) : bigQ :=
  match t with
  | [] => qofZ (-123456789)            (* not recorded: recognisable poison value *)
  | (k, v) :: r => if qeqb k x then v else q_lookup r x
  end.

(* the model with lg := recorded table, ex := identity: its output is the LOGARITHM of the
   trend/gap when log=True (the harness compares it with numpy.log of the implementation's output) *)
Definition hpf_q (tbl : list (bigQ * bigQ)) (a : hp_args QOps) (w : Z) (len : nat) :=
  hpf_model QOps q_solve_oracle (q_lookup tbl) (fun x => x) a w len.

Definition hp_case_ok (tol : bigQ) (tbl : list (bigQ * bigQ)) (a : hp_args QOps) (w : Z) (len : nat)
           (impl : list (list (option bigQ) * list (option bigQ))) : bool :=
  all2 (fun m v => all2 (q_close_opt tol) (fst m) (fst v) && all2 (q_close_opt tol) (snd m) (snd v))
       (hpf_q tbl a w len) impl.
