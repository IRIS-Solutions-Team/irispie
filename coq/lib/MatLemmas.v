(* Matrix facts for the Kalman and plan proofs, on top of MathComp 1.15: symmetric matrices, matrices with an empty dimension,
   row selection by a mask or by row numbers, Gaussian conditioning (defined algebraically) and
   its behaviour under affine maps, Schur-complement inverse and determinant, the tower law for
   nested Schur complements (sequential = joint Gaussian conditioning). *)
From mathcomp Require Import all_ssreflect all_algebra.
From mathcomp Require Import ring.
From Verif.lib Require Import MatOps MatMC.
From Verif.lib Require Export MxAbel.
Set Implicit Arguments.
Unset Strict Implicit.
Unset Printing Implicit Defensive.
Import GRing.Theory.
Local Open Scope ring_scope.

Ltac mx_expand :=
  rewrite ?(mulmxDr, mulmxDl, mulmxBr, mulmxBl, mulmxN, mulNmx, opprD, opprK) ?mulmxA
          ?(mulmxDr, mulmxDl, mulmxBr, mulmxBl, mulmxN, mulNmx, opprD, opprK) ?mulmxA.

Section Sym.
Variable F : fieldType.

Lemma trmxB m k (A B : 'M[F]_(m, k)) : (A - B)^T = A^T - B^T.
Proof. exact: linearB. Qed.

(* matrices with an empty dimension: numpy's arrays of shape (0, k) and (k, 0) *)
Lemma mx0row k (A B : 'M[F]_(0, k)) : A = B.
Proof. by rewrite [A]flatmx0 [B]flatmx0. Qed.

Lemma mul_thin_flat m k (A : 'M[F]_(m, 0)) (B : 'M[F]_(0, k)) : A *m B = 0.
Proof. by rewrite [A]thinmx0 mul0mx. Qed.

Lemma mulmx_dim0 m k l (A : 'M[F]_(m, k)) (B : 'M[F]_(k, l)) : k = 0%N -> A *m B = 0.
Proof. by move=> E; move: A B; rewrite E; exact: mul_thin_flat. Qed.

Lemma det_dim0 k (A : 'M[F]_k) : k = 0%N -> \det A = 1.
Proof. by move=> E; move: A; rewrite E; exact: det_mx00. Qed.

(* the model's comparisons on nat are the standard library's *)
Lemma ltbE i t : Nat.ltb i t = (i < t)%N.
Proof. by apply/idP/idP => [/PeanoNat.Nat.ltb_lt/ltP|/ltP/PeanoNat.Nat.ltb_lt]. Qed.

Lemma ltb0 k : Nat.ltb 0 k = false -> k = 0%N.
Proof. by case: k. Qed.

Lemma eqb0 k : Nat.eqb k 0 = (k == 0%N).
Proof. by case: k. Qed.

Lemma if_pos_rows m k (A : 'M[F]_(m, k)) : (if Nat.ltb 0 m then A else 0) = A.
Proof. by case: m A => // A; exact: mx0row. Qed.

Definition is_sym k (A : 'M[F]_k) : Prop := A^T = A.

Lemma sym_inv k (A : 'M[F]_k) : is_sym A -> is_sym (invmx A).
Proof. by rewrite /is_sym => sA; rewrite trmx_inv sA. Qed.

Lemma sym_congr m k (A : 'M[F]_k) (B : 'M[F]_(m, k)) : is_sym A -> is_sym (B *m A *m B^T).
Proof. by rewrite /is_sym => sA; rewrite !trmx_mul trmxK sA mulmxA. Qed.

Lemma sym_add k (A B : 'M[F]_k) : is_sym A -> is_sym B -> is_sym (A + B).
Proof. by rewrite /is_sym => sA sB; rewrite linearD /= sA sB. Qed.

Lemma sym_sub k (A B : 'M[F]_k) : is_sym A -> is_sym B -> is_sym (A - B).
Proof. by rewrite /is_sym => sA sB; rewrite trmxB sA sB. Qed.

Lemma sym_scale k (c : F) (A : 'M[F]_k) : is_sym A -> is_sym (c *: A).
Proof. by rewrite /is_sym linearZ /= => ->. Qed.

Lemma sym0 k : is_sym (0 : 'M[F]_k).
Proof. by rewrite /is_sym trmx0. Qed.

End Sym.

(* row selection (by mask / by row numbers) is a row-wise linear map *)
Section RowSelection.
Variable F : fieldType.

(* rows picked by a partial index function *)
Definition pick_rows q m k (g : nat -> option 'I_m) (A : 'M[F]_(m, k)) : 'M[F]_(q, k) :=
  \matrix_(i, j) (if g i is Some r then A r j else 0).

Lemma nth_map_ohead (T U : Type) (x0 : U) (f : T -> U) (s : seq T) i :
  nth x0 [seq f y | y <- s] i = if ohead (drop i s) is Some y then f y else x0.
Proof. by elim: s i => [|y s IH] [|i] //=. Qed.

Definition sel_ord (msk : seq bool) m (i : nat) : option 'I_m := ohead (drop i (mask msk (enum 'I_m))).
Definition idx_ord (idx : seq nat) m (i : nat) : option 'I_m := ohead (drop (nth 0%N idx i) (enum 'I_m)).

Lemma mc_selE m k msk (A : 'M[F]_(m, k)) : mc_sel msk A = pick_rows _ (sel_ord msk m) A.
Proof.
apply/matrixP=> i j; rewrite !mxE /rows_of -map_mask nth_map_ohead /sel_ord.
by case: (ohead _) => [r|]; rewrite !mxE.
Qed.

Lemma mc_rowsE m k idx (A : 'M[F]_(m, k)) : mc_rows idx A = pick_rows _ (idx_ord idx m) A.
Proof.
apply/matrixP=> i j; rewrite !mxE /rows_of nth_map_ohead /idx_ord.
by case: (ohead _) => [r|]; rewrite !mxE.
Qed.

Lemma pick_rows_mul q m k l g (A : 'M[F]_(m, k)) (B : 'M[F]_(k, l)) :
  pick_rows q g (A *m B) = pick_rows q g A *m B.
Proof.
apply/matrixP=> i j; rewrite !mxE; case E: (g i) => [r|].
  by rewrite !mxE; apply: eq_bigr => t _; rewrite !mxE E.
by rewrite big1 // => t _; rewrite !mxE E mul0r.
Qed.

Lemma pick_rows_add q m k g (A B : 'M[F]_(m, k)) :
  pick_rows q g (A + B) = pick_rows q g A + pick_rows q g B.
Proof. by apply/matrixP=> i j; rewrite !mxE; case: (g i) => [r|]; rewrite ?mxE ?addr0. Qed.

Lemma pick_rows_sub q m k g (A B : 'M[F]_(m, k)) :
  pick_rows q g (A - B) = pick_rows q g A - pick_rows q g B.
Proof. by apply/matrixP=> i j; rewrite !mxE; case: (g i) => [r|]; rewrite ?mxE ?subr0. Qed.

Lemma mc_sel_mul m k l msk (A : 'M[F]_(m, k)) (B : 'M[F]_(k, l)) : mc_sel msk (A *m B) = mc_sel msk A *m B.
Proof. by rewrite !mc_selE pick_rows_mul. Qed.
Lemma mc_sel_add m k msk (A B : 'M[F]_(m, k)) : mc_sel msk (A + B) = mc_sel msk A + mc_sel msk B.
Proof. by rewrite !mc_selE pick_rows_add. Qed.
Lemma mc_sel_sub m k msk (A B : 'M[F]_(m, k)) : mc_sel msk (A - B) = mc_sel msk A - mc_sel msk B.
Proof. by rewrite !mc_selE pick_rows_sub. Qed.
Lemma mc_rows_mul m k l idx (A : 'M[F]_(m, k)) (B : 'M[F]_(k, l)) : mc_rows idx (A *m B) = mc_rows idx A *m B.
Proof. by rewrite !mc_rowsE pick_rows_mul. Qed.
Lemma mc_rows_sub m k idx (A B : 'M[F]_(m, k)) : mc_rows idx (A - B) = mc_rows idx A - mc_rows idx B.
Proof. by rewrite !mc_rowsE pick_rows_sub. Qed.

(* entry i of the selection is entry idx[i] of the matrix *)
Lemma mc_rows_entry m k idx (A : 'M[F]_(m, k)) (i : 'I_(length idx)) (r : 'I_m) j :
  nth 0%N idx i = r -> mc_rows idx A i j = A r j.
Proof.
move=> E; rewrite mc_rowsE !mxE /idx_ord E.
have -> : ohead (drop r (enum 'I_m)) = Some r; last by [].
rewrite -[r in drop r]/(nat_of_ord r) (drop_nth r) ?size_enum_ord //=.
by rewrite nth_ord_enum.
Qed.

Lemma mem_mask_nth (T : eqType) (x : T) (m : seq bool) (s : seq T) :
  uniq s -> x \in mask m s = (x \in s) && nth false m (index x s).
Proof.
elim: m s => [|b m IH] [|y s] //=; first by rewrite nth_nil andbF.
case/andP=> ny us; rewrite in_cons; case: b => /=.
  rewrite in_cons IH // [y == x]eq_sym; case: (x =P y) => [->|_] //=.
rewrite IH // [y == x]eq_sym; case: (x =P y) => [E|_] //=.
by rewrite E (negbTE ny).
Qed.

(* the i-th kept row is a row whose mask bit is set *)
Lemma sel_ord_set msk m i (r : 'I_m) : sel_ord msk m i = Some r -> nth false msk r.
Proof.
rewrite /sel_ord => E.
have : r \in mask msk (enum 'I_m).
  have := mem_nth r (s := mask msk (enum 'I_m)) (n := i).
  case: (ltnP i (size (mask msk (enum 'I_m)))) E => [lt|ge].
    by rewrite (drop_nth r lt) /= => -[->] /(_ isT).
  by rewrite drop_oversize.
by rewrite mem_mask_nth ?enum_uniq // mem_enum index_enum_ord.
Qed.

(* every row whose mask bit is set is kept *)
Lemma sel_ord_kept msk m (r : 'I_m) : nth false msk r -> exists i, sel_ord msk m i = Some r.
Proof.
move=> h; have rin : r \in mask msk (enum 'I_m).
  by rewrite mem_mask_nth ?enum_uniq // mem_enum index_enum_ord.
exists (index r (mask msk (enum 'I_m))).
by rewrite /sel_ord (drop_nth r) ?index_mem //= nth_index.
Qed.

Lemma size_mask_le (T : Type) msk (s : seq T) : (size (mask msk s) <= count_true msk)%N.
Proof.
elim: msk s => [|[] msk IH] [|y s] //=.
by apply: leq_trans (IH s) _.
Qed.

(* if two selections agree, the matrices agree on the rows whose bit is set (rows within the mask) *)
Lemma mc_sel_eq_rows m k msk (A B : 'M[F]_(m, k)) :
  mc_sel msk A = mc_sel msk B -> forall r : 'I_m, nth false msk r -> row r A = row r B.
Proof.
rewrite !mc_selE => E r /sel_ord_kept [i Ei].
have lti : (i < count_true msk)%N.
  case: (ltnP i (count_true msk)) => // ge.
  move: Ei; rewrite /sel_ord drop_oversize //.
  exact: leq_trans (size_mask_le _ _) ge.
apply/rowP=> j; move/matrixP/(_ (Ordinal lti) j): E.
by rewrite !mxE /= Ei.
Qed.

End RowSelection.

(* Gaussian conditioning, defined algebraically *)
Section Gauss.
Variable F : fieldType.

(* (x, y) jointly Gaussian with means (mu_x, mu_y) and covariance [[Sxx, Sxy], [Sxy', Syy]] *)
Definition cond_mean nx ny (mu_x : 'cV[F]_nx) (mu_y : 'cV[F]_ny) (Sxy : 'M[F]_(nx, ny)) (Syy : 'M[F]_ny)
    (y : 'cV[F]_ny) : 'cV[F]_nx :=
  mu_x + Sxy *m invmx Syy *m (y - mu_y).
Definition cond_cov nx ny (Sxx : 'M[F]_nx) (Sxy : 'M[F]_(nx, ny)) (Syy : 'M[F]_ny) : 'M[F]_nx :=
  Sxx - Sxy *m invmx Syy *m Sxy^T.
(* cross covariance of (x, z) given y *)
Definition cond_cross nx nz ny (Sxz : 'M[F]_(nx, nz)) (Sxy : 'M[F]_(nx, ny)) (Syy : 'M[F]_ny)
    (Szy : 'M[F]_(nz, ny)) : 'M[F]_(nx, nz) :=
  Sxz - Sxy *m invmx Syy *m Szy^T.
(* the quadratic form of the density *)
Definition maha k (mu : 'cV[F]_k) (S : 'M[F]_k) (y : 'cV[F]_k) : F :=
  ((y - mu)^T *m invmx S *m (y - mu)) 0 0.

(* conditioning commutes with an affine map x |-> A x + b of the conditioned vector *)
Lemma cond_mean_affine nx ny m (A : 'M[F]_(m, nx)) (b : 'cV[F]_m) (mu_x : 'cV[F]_nx) (mu_y y : 'cV[F]_ny) Sxy Syy :
  A *m cond_mean mu_x mu_y Sxy Syy y + b = cond_mean (A *m mu_x + b) mu_y (A *m Sxy) Syy y.
Proof. by rewrite /cond_mean mulmxDr !mulmxA addrAC. Qed.

Lemma cond_cov_affine nx ny m (A : 'M[F]_(m, nx)) (C : 'M[F]_m) (Sxx : 'M[F]_nx) (Sxy : 'M[F]_(nx, ny)) Syy :
  A *m cond_cov Sxx Sxy Syy *m A^T + C = cond_cov (A *m Sxx *m A^T + C) (A *m Sxy) Syy.
Proof. by rewrite /cond_cov mulmxBr mulmxBl trmx_mul !mulmxA addrAC. Qed.

(* the cross covariance of x and z = A x *)
Lemma cond_cross_mulr nx ny m (A : 'M[F]_(m, nx)) (Sxx : 'M[F]_nx) (Sxy : 'M[F]_(nx, ny)) Syy :
  cond_cross (Sxx *m A^T) Sxy Syy (A *m Sxy) = cond_cov Sxx Sxy Syy *m A^T.
Proof. by rewrite /cond_cross /cond_cov trmx_mul mulmxBl !mulmxA. Qed.

Lemma unitmx_det k (A : 'M[F]_k) : A \in unitmx -> \det A != 0.
Proof. by rewrite unitmxE unitfE. Qed.

Lemma inv_from_mul k (A B : 'M[F]_k) : A *m B = 1%:M -> invmx A = B.
Proof.
move=> E; have [uA _] := mulmx1_unit E.
by rewrite -[LHS]mulmx1 -E mulKmx.
Qed.

Section Schur.
Variables n1 n2 : nat.
Variables (A : 'M[F]_n1) (B : 'M[F]_(n1, n2)) (C : 'M[F]_(n2, n1)) (D : 'M[F]_n2).
Let S := D - C *m invmx A *m B.                 (* Schur complement of A *)
Hypothesis uA : A \in unitmx.
Hypothesis uS : S \in unitmx.
Let Ai := invmx A.
Let Si := invmx S.

Definition schur_inverse : 'M[F]_(n1 + n2) :=
  block_mx (Ai + Ai *m B *m Si *m C *m Ai) (- (Ai *m B *m Si)) (- (Si *m C *m Ai)) Si.

Lemma schur_mul_inverse : block_mx A B C D *m schur_inverse = 1%:M.
Proof.
rewrite /schur_inverse mulmx_block [RHS]scalar_mx_block.
have AAi : A *m Ai = 1%:M by rewrite mulmxV.
have SSi : S *m Si = 1%:M by rewrite mulmxV.
have DSi : D *m Si = 1%:M + C *m Ai *m B *m Si.
  by rewrite -SSi /S mulmxBl subrK.
congr block_mx.
- rewrite !(mulmxDr, mulmxN) !mulmxA AAi !mul1mx.
  by mx_abel.
- by rewrite mulmxN !mulmxA AAi mul1mx addNr.
- rewrite !(mulmxDr, mulmxN) !mulmxA DSi !mulmxDl mul1mx.
  by mx_abel.
- by rewrite mulmxN !mulmxA DSi; mx_abel.
Qed.

Lemma schur_inv : invmx (block_mx A B C D) = schur_inverse.
Proof. exact: inv_from_mul schur_mul_inverse. Qed.

Lemma schur_unit : block_mx A B C D \in unitmx.
Proof. by have [] := mulmx1_unit schur_mul_inverse. Qed.

(* determinant of a block matrix through the Schur complement *)
Lemma schur_det : \det (block_mx A B C D) = \det A * \det S.
Proof.
have -> : block_mx A B C D = block_mx 1%:M 0 (C *m Ai) 1%:M *m block_mx A B 0 S.
  rewrite mulmx_block !mul1mx !mul0mx !addr0.
  have -> : C *m Ai *m A = C by rewrite -mulmxA mulVmx // mulmx1.
  by rewrite /S addrC subrK.
by rewrite det_mulmx det_lblock det_ublock !det1 !mul1r.
Qed.

(* the inverse is diag(A^-1, 0) + [-A^-1 B; 1] S^-1 [-C A^-1, 1]: its value between a row and a column *)
Lemma schur_inverse_mul m k (X1 : 'M[F]_(m, n1)) (X2 : 'M[F]_(m, n2)) (Y1 : 'M[F]_(n1, k)) (Y2 : 'M[F]_(n2, k)) :
  row_mx X1 X2 *m schur_inverse *m col_mx Y1 Y2
  = X1 *m Ai *m Y1 + (X2 - X1 *m Ai *m B) *m Si *m (Y2 - C *m Ai *m Y1).
Proof. by rewrite /schur_inverse mul_row_block mul_row_col; mx_expand; mx_abel. Qed.

End Schur.

(* tower law: conditioning on y1 and then on y2 = conditioning on (y1, y2) *)
Section Tower.
Variables nx n1 n2 : nat.
Variables (mu_x : 'cV[F]_nx) (m1 y1 : 'cV[F]_n1) (m2 y2 : 'cV[F]_n2).
Variables (Sxx : 'M[F]_nx) (Sx1 : 'M[F]_(nx, n1)) (Sx2 : 'M[F]_(nx, n2)).
Variables (S11 : 'M[F]_n1) (S12 : 'M[F]_(n1, n2)) (S22 : 'M[F]_n2).
Let S21 := S12^T.
(* moments of (x, y2) given y1 *)
Let mx1 := cond_mean mu_x m1 Sx1 S11 y1.
Let m21 := cond_mean m2 m1 S21 S11 y1.
Let Sxx1 := cond_cov Sxx Sx1 S11.
Let Sx21 := cond_cross Sx2 Sx1 S11 S21.
Let S221 := cond_cov S22 S21 S11.
Hypothesis u11 : S11 \in unitmx.
Hypothesis u221 : S221 \in unitmx.

Let Syy := block_mx S11 S12 S21 S22.
Let Sxy := row_mx Sx1 Sx2.

Lemma S221_schur : S221 = S22 - S21 *m invmx S11 *m S12.
Proof. by rewrite /S221 /cond_cov /S21 trmxK. Qed.

Lemma tower_unit : Syy \in unitmx.
Proof. by apply: schur_unit => //; rewrite -S221_schur. Qed.

Lemma tower_inv : invmx Syy = schur_inverse S11 S12 S21 S22.
Proof. by apply: schur_inv => //; rewrite -S221_schur. Qed.

Theorem tower_mean :
  cond_mean mx1 m21 Sx21 S221 y2 = cond_mean mu_x (col_mx m1 m2) Sxy Syy (col_mx y1 y2).
Proof.
rewrite /cond_mean tower_inv opp_col_mx add_col_mx schur_inverse_mul -S221_schur.
by rewrite /mx1 /m21 /Sx21 /cond_mean /cond_cross /S21 trmxK opprD !addrA.
Qed.

Hypothesis s11 : is_sym S11.

Theorem tower_cov :
  cond_cov Sxx1 Sx21 S221 = cond_cov Sxx Sxy Syy.
Proof.
rewrite /cond_cov tower_inv tr_row_mx schur_inverse_mul -S221_schur.
rewrite /Sxx1 /Sx21 /cond_cov /cond_cross /S21 trmxK trmxB !trmx_mul (sym_inv s11) mulmxA.
by rewrite opprD !addrA.
Qed.

Theorem tower_maha :
  maha (col_mx m1 m2) Syy (col_mx y1 y2) = maha m1 S11 y1 + maha m21 S221 y2.
Proof.
rewrite /maha tower_inv opp_col_mx add_col_mx tr_col_mx schur_inverse_mul -S221_schur mxE.
rewrite /m21 /cond_mean /S21 opprD addrA; set e1 := y1 - m1; set e2 := y2 - m2.
by rewrite trmxB !trmx_mul trmxK (sym_inv s11) mulmxA.
Qed.

Theorem tower_det : \det Syy = \det S11 * \det S221.
Proof. by rewrite /Syy schur_det // S221_schur. Qed.

End Tower.

(* negative log density of N(mu, S) at y, with the scalar logarithm and log(2 pi) as parameters *)
Definition nll_gauss (flog : F -> F) (l2pi : F) k (mu : 'cV[F]_k) (S : 'M[F]_k) (y : 'cV[F]_k) : F :=
  2%:R^-1 * (k%:R * l2pi + flog (\det S) + maha mu S y).

(* nll(y1, y2) = nll(y1) + nll(y2 | y1) *)
Theorem tower_nll (flog : F -> F) (l2pi : F) n1 n2
    (m1 y1 : 'cV[F]_n1) (m2 y2 : 'cV[F]_n2) (S11 : 'M[F]_n1) (S12 : 'M[F]_(n1, n2)) (S22 : 'M[F]_n2) :
  (forall a b, a != 0 -> b != 0 -> flog (a * b) = flog a + flog b) ->
  is_sym S11 -> S11 \in unitmx -> cond_cov S22 S12^T S11 \in unitmx ->
  nll_gauss flog l2pi (col_mx m1 m2) (block_mx S11 S12 S12^T S22) (col_mx y1 y2)
  = nll_gauss flog l2pi m1 S11 y1
    + nll_gauss flog l2pi (cond_mean m2 m1 S12^T S11 y1) (cond_cov S22 S12^T S11) y2.
Proof.
move=> logM s11 u11 u221; rewrite /nll_gauss tower_maha // tower_det // logM ?unitmx_det // natrD.
set a := flog _; set b := flog _; set c := maha _ _ _; set d := maha _ _ _.
by ring.
Qed.

End Gauss.
