(* RegexSub: a verified matcher for a small regular-expression subset.
   Models Python re.Pattern.fullmatch for patterns such as \d\d\d\d-Q\d
   and \([\-\+]?\d+\).  The matcher is a Brzozowski-derivative matcher,
   proved equivalent to the denotational specification [Matches]. *)

From Coq Require Import Ascii String List Bool Arith.
Import ListNotations.

Definition is_digit (c : ascii) : bool :=
  (48 <=? nat_of_ascii c) && (nat_of_ascii c <=? 57).

Inductive re : Type :=
| Empty                      (* matches nothing *)
| Eps                        (* matches the empty string *)
| Chr (c : ascii)            (* one literal character *)
| Digit                      (* \d restricted to ASCII digits *)
| Cls (l : list ascii)       (* character class [...] : any one character in l *)
| Seq (a b : re)
| Alt (a b : re)
| Opt (r : re)               (* r? *)
| Plus (r : re)              (* r+ *)
| Star (r : re).             (* r* *)

Inductive Matches : re -> list ascii -> Prop :=
| MEps : Matches Eps []
| MChr : forall c, Matches (Chr c) [c]
| MDigit : forall c, is_digit c = true -> Matches Digit [c]
| MCls : forall c l, In c l -> Matches (Cls l) [c]
| MSeq : forall a b s1 s2, Matches a s1 -> Matches b s2 -> Matches (Seq a b) (s1 ++ s2)
| MAltL : forall a b s, Matches a s -> Matches (Alt a b) s
| MAltR : forall a b s, Matches b s -> Matches (Alt a b) s
| MOptNone : forall r, Matches (Opt r) []
| MOptSome : forall r s, Matches r s -> Matches (Opt r) s
| MPlusOne : forall r s, Matches r s -> Matches (Plus r) s
| MPlusMore : forall r s1 s2, Matches r s1 -> Matches (Plus r) s2 -> Matches (Plus r) (s1 ++ s2)
| MStarNil : forall r, Matches (Star r) []
| MStarApp : forall r s1 s2, Matches r s1 -> Matches (Star r) s2 -> Matches (Star r) (s1 ++ s2).

Fixpoint nullable (r : re) : bool :=
  match r with
  | Empty => false
  | Eps => true
  | Chr _ => false
  | Digit => false
  | Cls _ => false
  | Seq a b => nullable a && nullable b
  | Alt a b => nullable a || nullable b
  | Opt _ => true
  | Plus r => nullable r
  | Star _ => true
  end.

Fixpoint deriv (c : ascii) (r : re) : re :=
  match r with
  | Empty => Empty
  | Eps => Empty
  | Chr d => if Ascii.eqb c d then Eps else Empty
  | Digit => if is_digit c then Eps else Empty
  | Cls l => if existsb (Ascii.eqb c) l then Eps else Empty
  | Seq a b =>
      if nullable a
      then Alt (Seq (deriv c a) b) (deriv c b)
      else Seq (deriv c a) b
  | Alt a b => Alt (deriv c a) (deriv c b)
  | Opt r => deriv c r
  | Plus r => Seq (deriv c r) (Star r)
  | Star r => Seq (deriv c r) (Star r)
  end.

Definition fullmatch (r : re) (s : list ascii) : bool :=
  nullable (fold_left (fun r c => deriv c r) s r).

Lemma empty_inv : forall s, ~ Matches Empty s.
Proof. intros s H. inversion H. Qed.

Lemma eps_inv : forall s, Matches Eps s <-> s = [].
Proof.
  intros s. split; intro H.
  - inversion H. reflexivity.
  - subst. constructor.
Qed.

Lemma chr_inv : forall c s, Matches (Chr c) s <-> s = [c].
Proof.
  intros c s. split; intro H.
  - inversion H. reflexivity.
  - subst. constructor.
Qed.

Lemma digit_inv : forall s, Matches Digit s <-> exists c, s = [c] /\ is_digit c = true.
Proof.
  intros s. split; intro H.
  - inversion H; subst. eexists; split; [reflexivity | assumption].
  - destruct H as [c [E D]]. subst. constructor. assumption.
Qed.

Lemma cls_inv : forall l s, Matches (Cls l) s <-> exists c, s = [c] /\ In c l.
Proof.
  intros l s. split; intro H.
  - inversion H; subst. eexists; split; [reflexivity | assumption].
  - destruct H as [c [E D]]. subst. constructor. assumption.
Qed.

Lemma seq_inv : forall a b s,
  Matches (Seq a b) s <-> exists s1 s2, s = s1 ++ s2 /\ Matches a s1 /\ Matches b s2.
Proof.
  intros a b s. split; intro H.
  - inversion H; subst. exists s1, s2. auto.
  - destruct H as [s1 [s2 [E [H1 H2]]]]. subst. constructor; assumption.
Qed.

Lemma alt_inv : forall a b s, Matches (Alt a b) s <-> Matches a s \/ Matches b s.
Proof.
  intros a b s. split; intro H.
  - inversion H; subst; auto.
  - destruct H; [apply MAltL | apply MAltR]; assumption.
Qed.

Lemma opt_inv : forall r s, Matches (Opt r) s <-> s = [] \/ Matches r s.
Proof.
  intros r s. split; intro H.
  - inversion H; subst; auto.
  - destruct H; [subst; apply MOptNone | apply MOptSome; assumption].
Qed.

Lemma plus_star : forall r s, Matches (Plus r) s -> Matches (Star r) s.
Proof.
  intros r s H. remember (Plus r) as p eqn:E. revert r E.
  induction H; intros r0 E; try discriminate E; inversion E; subst.
  - rewrite <- (app_nil_r s). apply MStarApp; [assumption | apply MStarNil].
  - apply MStarApp; [assumption | auto].
Qed.

Lemma star_plus : forall r s2, Matches (Star r) s2 ->
  forall s1, Matches r s1 -> Matches (Plus r) (s1 ++ s2).
Proof.
  intros r s2 H. remember (Star r) as p eqn:E. revert r E.
  induction H; intros r0 E; try discriminate E; inversion E; subst; intros s0 H1.
  - rewrite app_nil_r. apply MPlusOne; assumption.
  - apply MPlusMore; [assumption | auto].
Qed.

Lemma star_cons_inv : forall r c s, Matches (Star r) (c :: s) ->
  exists s1 s2, s = s1 ++ s2 /\ Matches r (c :: s1) /\ Matches (Star r) s2.
Proof.
  intros r c s H. remember (Star r) as p eqn:E. remember (c :: s) as w eqn:W.
  revert r c s E W.
  induction H; intros r0 c0 s0 E W; try discriminate E; inversion E; subst.
  - discriminate W.
  - destruct s1 as [|d s1]; simpl in W.
    + eapply IHMatches2; eauto.
    + inversion W; subst. exists s1, s2. auto.
Qed.

Lemma plus_cons_inv : forall r c s, Matches (Plus r) (c :: s) ->
  exists s1 s2, s = s1 ++ s2 /\ Matches r (c :: s1) /\ Matches (Star r) s2.
Proof. intros r c s H. apply star_cons_inv, plus_star, H. Qed.

Theorem nullable_spec : forall r, nullable r = true <-> Matches r [].
Proof.
  induction r; simpl.
  - split; intro H; [discriminate | exfalso; eapply empty_inv; eauto].
  - split; intro H; [constructor | reflexivity].
  - split; intro H; [discriminate | inversion H].
  - split; intro H; [discriminate | inversion H].
  - split; intro H; [discriminate | inversion H].
  - rewrite andb_true_iff, IHr1, IHr2. split; intro H.
    + destruct H as [H1 H2]. apply (MSeq r1 r2 [] []); assumption.
    + apply seq_inv in H. destruct H as [s1 [s2 [E [H1 H2]]]].
      symmetry in E. apply app_eq_nil in E. destruct E; subst. auto.
  - rewrite orb_true_iff, IHr1, IHr2. symmetry. apply alt_inv.
  - split; intro H; [apply MOptNone | reflexivity].
  - rewrite IHr. split; intro H.
    + apply MPlusOne; assumption.
    + inversion H; subst; [assumption |].
      match goal with E : _ ++ _ = [] |- _ =>
        apply app_eq_nil in E; destruct E; subst; assumption end.
  - split; intro H; [apply MStarNil | reflexivity].
Qed.

Theorem deriv_spec : forall r c s, Matches (deriv c r) s <-> Matches r (c :: s).
Proof.
  induction r; intros c0 s; simpl.
  - (* Empty *)
    split; intro H; inversion H.
  - (* Eps *)
    split; intro H; inversion H.
  - (* Chr *)
    rewrite chr_inv. destruct (Ascii.eqb_spec c0 c) as [E | E].
    + subst. rewrite eps_inv. split; intro H; [subst; reflexivity | inversion H; reflexivity].
    + split; intro H; [inversion H | inversion H; subst; contradiction].
  - (* Digit *)
    rewrite digit_inv. destruct (is_digit c0) eqn:D.
    + rewrite eps_inv. split; intro H.
      * subst. exists c0. auto.
      * destruct H as [d [E _]]. inversion E. reflexivity.
    + split; intro H; [inversion H |].
      destruct H as [d [E Hd]]. inversion E; subst. congruence.
  - (* Cls *)
    rewrite cls_inv. destruct (existsb (Ascii.eqb c0) l) eqn:X.
    + rewrite eps_inv. apply existsb_exists in X. destruct X as [d [Hin Hd]].
      apply Ascii.eqb_eq in Hd. subst d. split; intro H.
      * subst. exists c0. auto.
      * destruct H as [d [E _]]. inversion E. reflexivity.
    + split; intro H; [inversion H |].
      destruct H as [d [E Hd]]. inversion E; subst.
      assert (existsb (Ascii.eqb d) l = true) as Y.
      { apply existsb_exists. exists d. split; [assumption | apply Ascii.eqb_refl]. }
      congruence.
  - (* Seq *)
    destruct (nullable r1) eqn:N.
    + rewrite alt_inv. rewrite !seq_inv. split; intro H.
      * destruct H as [[s1 [s2 [E [H1 H2]]]] | H].
        -- subst. exists (c0 :: s1), s2. repeat split; [apply IHr1 | ]; assumption.
        -- exists [], (c0 :: s). repeat split.
           ++ apply nullable_spec; assumption.
           ++ apply IHr2; assumption.
      * destruct H as [s1 [s2 [E [H1 H2]]]]. destruct s1 as [|d s1]; simpl in E.
        -- subst s2. right. apply IHr2; assumption.
        -- inversion E; subst. left. exists s1, s2. repeat split; [apply IHr1 | ]; assumption.
    + rewrite !seq_inv. split; intro H.
      * destruct H as [s1 [s2 [E [H1 H2]]]].
        subst. exists (c0 :: s1), s2. repeat split; [apply IHr1 | ]; assumption.
      * destruct H as [s1 [s2 [E [H1 H2]]]]. destruct s1 as [|d s1]; simpl in E.
        -- apply nullable_spec in H1. congruence.
        -- inversion E; subst. exists s1, s2. repeat split; [apply IHr1 | ]; assumption.
  - (* Alt *)
    rewrite !alt_inv, IHr1, IHr2. reflexivity.
  - (* Opt *)
    rewrite opt_inv, IHr. split; intro H; [right; assumption |].
    destruct H as [H | H]; [discriminate | assumption].
  - (* Plus *)
    rewrite seq_inv. split; intro H.
    + destruct H as [s1 [s2 [E [H1 H2]]]]. subst.
      change (c0 :: s1 ++ s2) with ((c0 :: s1) ++ s2).
      apply star_plus; [assumption | apply IHr; assumption].
    + apply plus_cons_inv in H. destruct H as [s1 [s2 [E [H1 H2]]]].
      exists s1, s2. repeat split; [assumption | apply IHr; assumption | assumption].
  - (* Star *)
    rewrite seq_inv. split; intro H.
    + destruct H as [s1 [s2 [E [H1 H2]]]]. subst.
      change (c0 :: s1 ++ s2) with ((c0 :: s1) ++ s2).
      apply MStarApp; [apply IHr; assumption | assumption].
    + apply star_cons_inv in H. destruct H as [s1 [s2 [E [H1 H2]]]].
      exists s1, s2. repeat split; [assumption | apply IHr; assumption | assumption].
Qed.

Lemma fullmatch_nil : forall r, fullmatch r [] = nullable r.
Proof. reflexivity. Qed.

Lemma fullmatch_cons : forall r c s, fullmatch r (c :: s) = fullmatch (deriv c r) s.
Proof. reflexivity. Qed.

Theorem fullmatch_spec : forall r s, fullmatch r s = true <-> Matches r s.
Proof.
  intros r s. revert r. induction s as [|c s IH]; intro r.
  - rewrite fullmatch_nil. apply nullable_spec.
  - rewrite fullmatch_cons, IH. apply deriv_spec.
Qed.

Inductive atom := AChr (c : ascii) | ADigit | ACls (l : list ascii).

Definition atom_re (a : atom) : re :=
  match a with AChr c => Chr c | ADigit => Digit | ACls l => Cls l end.

Definition atom_match (a : atom) (c : ascii) : bool :=
  match a with
  | AChr d => Ascii.eqb c d
  | ADigit => is_digit c
  | ACls l => existsb (Ascii.eqb c) l
  end.

Fixpoint seq_of (l : list re) : re :=
  match l with [] => Eps | r :: t => Seq r (seq_of t) end.

Fixpoint atoms_match (l : list atom) (s : list ascii) : bool :=
  match l, s with
  | [], [] => true
  | a :: l', c :: s' => atom_match a c && atoms_match l' s'
  | _, _ => false
  end.

Lemma atom_re_spec : forall a s,
  Matches (atom_re a) s <-> exists c, s = [c] /\ atom_match a c = true.
Proof.
  intros a s. destruct a as [d | | l]; simpl.
  - rewrite chr_inv. split; intro H.
    + subst. exists d. split; [reflexivity | apply Ascii.eqb_refl].
    + destruct H as [c [E H]]. apply Ascii.eqb_eq in H. subst. reflexivity.
  - apply digit_inv.
  - rewrite cls_inv. split; intros [c [E H]]; exists c; split; try assumption.
    + apply existsb_exists. exists c. split; [assumption | apply Ascii.eqb_refl].
    + apply existsb_exists in H. destruct H as [d [Hin Hd]].
      apply Ascii.eqb_eq in Hd. subst. assumption.
Qed.

Lemma atoms_match_app : forall x y s,
  atoms_match (x ++ y) s = true <->
  exists s1 s2, s = s1 ++ s2 /\ atoms_match x s1 = true /\ atoms_match y s2 = true.
Proof.
  induction x as [|a x IH]; intros y s; simpl.
  - split; intro H.
    + exists [], s. auto.
    + destruct H as [s1 [s2 [E [H1 H2]]]]. destruct s1; [|discriminate].
      subst. assumption.
  - destruct s as [|c s].
    + split; intro H.
      * destruct y; discriminate.
      * destruct H as [s1 [s2 [E [H1 H2]]]]. destruct s1; [discriminate|].
        discriminate.
    + rewrite andb_true_iff, IH. split; intro H.
      * destruct H as [Ha [s1 [s2 [E [H1 H2]]]]]. subst.
        exists (c :: s1), s2. simpl. rewrite Ha, H1. auto.
      * destruct H as [s1 [s2 [E [H1 H2]]]]. destruct s1 as [|d s1]; [discriminate|].
        simpl in E. inversion E; subst. apply andb_true_iff in H1. destruct H1 as [Ha H1].
        split; [assumption|]. exists s1, s2. auto.
Qed.

Lemma atoms_match_single : forall a s,
  atoms_match [a] s = true <-> exists c, s = [c] /\ atom_match a c = true.
Proof.
  intros a s. destruct s as [|c [|d s]]; simpl.
  - split; [discriminate | intros [c [E _]]; discriminate].
  - rewrite andb_true_r. split; intro H.
    + exists c. auto.
    + destruct H as [d [E H]]. inversion E; subst. assumption.
  - rewrite andb_false_r. split; [discriminate | intros [e [E _]]; discriminate].
Qed.

(* Recognise when a regex is such a sequence: returns the atoms if r is an
   arbitrarily nested Seq of Chr / Digit / Cls / Eps. *)
Fixpoint atoms_of (r : re) : option (list atom) :=
  match r with
  | Eps => Some []
  | Chr c => Some [AChr c]
  | Digit => Some [ADigit]
  | Cls l => Some [ACls l]
  | Seq a b =>
      match atoms_of a, atoms_of b with
      | Some x, Some y => Some (x ++ y)
      | _, _ => None
      end
  | _ => None
  end.

Lemma atoms_of_matches : forall r l s,
  atoms_of r = Some l -> (Matches r s <-> atoms_match l s = true).
Proof.
  induction r; intros l0 s H; simpl in H; try discriminate.
  - inversion H; subst. rewrite eps_inv.
    destruct s; simpl; split; intro; try reflexivity; discriminate.
  - inversion H; subst. rewrite atoms_match_single. apply (atom_re_spec (AChr c)).
  - inversion H; subst. rewrite atoms_match_single. apply (atom_re_spec ADigit).
  - inversion H; subst. rewrite atoms_match_single. apply (atom_re_spec (ACls l)).
  - destruct (atoms_of r1) as [x|] eqn:E1; [|discriminate].
    destruct (atoms_of r2) as [y|] eqn:E2; [|discriminate].
    inversion H; subst. rewrite seq_inv, atoms_match_app.
    split; intros [s1 [s2 [E [H1 H2]]]]; exists s1, s2; repeat split; try assumption.
    + apply (IHr1 x s1 eq_refl). assumption.
    + apply (IHr2 y s2 eq_refl). assumption.
    + apply (IHr1 x s1 eq_refl). assumption.
    + apply (IHr2 y s2 eq_refl). assumption.
Qed.

Theorem atoms_of_sound : forall r l s,
  atoms_of r = Some l -> fullmatch r s = atoms_match l s.
Proof.
  intros r l s H. apply eq_true_iff_eq. rewrite fullmatch_spec. apply atoms_of_matches, H.
Qed.

Lemma atoms_of_seq_of : forall l, atoms_of (seq_of (map atom_re l)) = Some l.
Proof. induction l as [|a l IH]; [reflexivity |]. destruct a; cbn; rewrite IH; reflexivity. Qed.

Theorem fullmatch_atoms : forall l s,
  fullmatch (seq_of (map atom_re l)) s = atoms_match l s.
Proof. intros l s. apply atoms_of_sound, atoms_of_seq_of. Qed.

Lemma atoms_match_digits : forall k s,
  atoms_match (repeat ADigit k) s = Nat.eqb (length s) k && forallb is_digit s.
Proof.
  induction k as [|k IH]; intros [|c s]; cbn; try reflexivity.
  rewrite IH. destruct (is_digit c), (Nat.eqb (length s) k); reflexivity.
Qed.

Lemma atoms_match_length : forall l s, atoms_match l s = true -> length s = length l.
Proof.
  induction l as [|a l IH]; intros [|c s] H; try discriminate H; [reflexivity |].
  cbn in *. apply andb_true_iff in H. f_equal. apply IH, H.
Qed.

(* Two atoms that accept no common character; two atom sequences that accept no common text,
   because they differ in length or are apart at some position.  This is how a text that fits
   one fixed-length pattern is seen not to fit another. *)
Definition atom_apart (a b : atom) : bool :=
  match a, b with
  | AChr c, AChr d => negb (Ascii.eqb c d)
  | AChr c, ADigit | ADigit, AChr c => negb (is_digit c)
  | _, _ => false
  end.

Fixpoint apart (p q : list atom) : bool :=
  match p, q with
  | [], [] => false
  | a :: p', b :: q' => atom_apart a b || apart p' q'
  | _, _ => true
  end.

Lemma atom_apart_sound : forall a b c,
  atom_apart a b = true -> atom_match b c = true -> atom_match a c = false.
Proof.
  intros [d | | l] [e | | m] c A M; try discriminate A; cbn in *.
  - apply Ascii.eqb_eq in M. subst e. rewrite Ascii.eqb_sym. apply negb_true_iff, A.
  - destruct (Ascii.eqb_spec c d) as [-> |]; [| reflexivity]. rewrite M in A. discriminate A.
  - apply Ascii.eqb_eq in M. subst e. apply negb_true_iff, A.
Qed.

Theorem apart_sound : forall p q s,
  apart p q = true -> atoms_match q s = true -> atoms_match p s = false.
Proof.
  induction p as [|a p IH]; intros [|b q] [|c s] A M; try discriminate; try reflexivity.
  cbn in *. apply andb_true_iff in M. destruct M as [Mb Mq]. apply andb_false_iff.
  apply orb_true_iff in A. destruct A as [A | A]; [left; eapply atom_apart_sound | right; eapply IH]; eassumption.
Qed.

Theorem matches_plus_digits : forall s,
  s <> [] -> forallb is_digit s = true -> Matches (Plus Digit) s.
Proof.
  induction s as [|c s IH]; intros Hne Hd; [contradiction Hne; reflexivity |].
  simpl in Hd. apply andb_true_iff in Hd. destruct Hd as [Hc Hs].
  destruct s as [|d s].
  - apply MPlusOne. apply MDigit. assumption.
  - change (c :: d :: s) with ([c] ++ d :: s). apply MPlusMore.
    + apply MDigit. assumption.
    + apply IH; [discriminate | assumption].
Qed.

Theorem matches_plus_digits_inv : forall s,
  Matches (Plus Digit) s -> s <> [] /\ forallb is_digit s = true.
Proof.
  intros s H. remember (Plus Digit) as p eqn:E.
  induction H; try discriminate E; inversion E; subst.
  - apply digit_inv in H. destruct H as [c [Ec Hc]]. subst. simpl.
    rewrite Hc. split; [discriminate | reflexivity].
  - apply digit_inv in H. destruct H as [c [Ec Hc]]. subst. simpl.
    rewrite Hc. split; [discriminate |]. apply IHMatches2. reflexivity.
Qed.

Theorem matches_seq_chr_head : forall c r s,
  Matches (Seq (Chr c) r) s -> exists t, s = c :: t /\ Matches r t.
Proof.
  intros c r s H. apply seq_inv in H. destruct H as [s1 [s2 [E [H1 H2]]]].
  apply chr_inv in H1. subst. exists s2. auto.
Qed.

Theorem matches_seq_digit_head : forall r s,
  Matches (Seq Digit r) s ->
  exists c t, s = c :: t /\ is_digit c = true /\ Matches r t.
Proof.
  intros r s H. apply seq_inv in H. destruct H as [s1 [s2 [E [H1 H2]]]].
  apply digit_inv in H1. destruct H1 as [c [Ec Hc]]. subst. exists c, s2. auto.
Qed.

Definition re_paren_int : re :=
  Seq (Chr "("%char)
      (Seq (Opt (Cls ["-"%char; "+"%char]))
           (Seq (Plus Digit) (Chr ")"%char))).

Example paren_int_ok :
  fullmatch re_paren_int (list_ascii_of_string "(-15)") = true.
Proof. vm_compute. reflexivity. Qed.

Example paren_int_trailing :
  fullmatch re_paren_int (list_ascii_of_string "(5),") = false.
Proof. vm_compute. reflexivity. Qed.

Print Assumptions fullmatch_spec.
Print Assumptions fullmatch_atoms.
Print Assumptions atoms_of_sound.
