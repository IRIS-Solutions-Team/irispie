(* The fragment of Python's str / int / format machinery used by irispie's
   period codecs: str(int), int(str) on [+-]?digits, '{:0Wg}' for non-negative
   integers below 10^6, tuple repr of integers, str.strip / removeprefix /
   removesuffix / split(sep).  Definitions first, lemmas below. *)
From Coq Require Import ZArith Bool Ascii String List Lia.
From Verif Require Import lib.RegexSub.
Import ListNotations.
Open Scope Z_scope.

Definition str := list ascii.
Definition s2l (s : string) : str := list_ascii_of_string s.

(* pieces of an f-string *)
Inductive fpiece :=
| FLit (s : string)                           (* literal text *)
| FG (n : Z) (width : nat) (zero : bool)      (* {n:0Wg} (zero = true) or {n:Wg} *)
| FD (n : Z)                                  (* {n} : str(int) *)
| FTup (l : list Z).                          (* {t} : repr of a tuple of ints *)

(* a from_sdmx_string body: strip?, removeprefix, removesuffix, split(sep)?, int() of the pieces, constructor *)
Record sdmx_parser := {
  sp_strip : bool; sp_prefix : string; sp_suffix : string; sp_sep : option string;
  sp_npieces : nat; sp_star : bool; sp_build : list Z -> option Z }.

(* ------------------------------------------------------------------ digits *)

Definition digit_char (d : Z) : ascii :=
  match d with
  | 0 => "0" | 1 => "1" | 2 => "2" | 3 => "3" | 4 => "4" | 5 => "5" | 6 => "6" | 7 => "7" | 8 => "8" | _ => "9"
  end%char.

Definition digit_val (c : ascii) : Z := Z.of_nat (nat_of_ascii c) - 48.

Fixpoint digits_fuel (fuel : nat) (n : Z) : str :=
  match fuel with
  | O => []
  | S f => if n <? 10 then [digit_char n] else digits_fuel f (n / 10) ++ [digit_char (n mod 10)]
  end.

(* str(n) for n >= 0 *)
Definition dec_nat (n : Z) : str := digits_fuel (S (Z.to_nat (Z.log2 n))) n.
(* str(n) *)
Definition dec_int (n : Z) : str := if n <? 0 then "-"%char :: dec_nat (- n) else dec_nat n.

Definition digits_value (s : str) : Z := fold_left (fun a c => 10 * a + digit_val c) s 0.

Definition all_digits (s : str) : bool := forallb is_digit s.

Definition parse_nat (s : str) : option Z :=
  match s with
  | [] => None
  | _ => if all_digits s then Some (digits_value s) else None
  end.

(* int(s) for s of the form [+-]?digits+ ; anything else: ValueError (None) *)
Definition parse_int (s : str) : option Z :=
  match s with
  | c :: t => if Ascii.eqb c "-" then option_map Z.opp (parse_nat t)
              else if Ascii.eqb c "+" then parse_nat t
              else parse_nat s
  | [] => None
  end.

Definition pad (w : nat) (c : ascii) (s : str) : str := repeat c (w - length s) ++ s.

(* '{n:0Wg}' / '{n:Wg}' : exact for integers 0 <= n < 10^6 (beyond that %g switches to an exponent) *)
Definition fmt_g (n : Z) (w : nat) (zero : bool) : option str :=
  if (0 <=? n) && (n <? 1000000) then Some (pad w (if zero then "0" else " ")%char (dec_nat n)) else None.

Fixpoint join_comma (l : list str) : str :=
  match l with
  | [] => []
  | [x] => x
  | x :: r => x ++ ","%char :: " "%char :: join_comma r
  end.

(* repr of a tuple of ints *)
Definition tuple_repr (l : list Z) : str :=
  match l with
  | [x] => "("%char :: dec_int x ++ [","; ")"]%char
  | _ => "("%char :: join_comma (map dec_int l) ++ [")"]%char
  end.

Definition render_piece (p : fpiece) : option str :=
  match p with
  | FLit s => Some (s2l s)
  | FG n w z => fmt_g n w z
  | FD n => Some (dec_int n)
  | FTup l => Some (tuple_repr l)
  end.

Fixpoint render (l : list fpiece) : option str :=
  match l with
  | [] => Some []
  | p :: r => match render_piece p, render r with
              | Some a, Some b => Some (a ++ b)
              | _, _ => None
              end
  end.

Definition remove_blanks (s : str) : str := filter (fun c => negb (Ascii.eqb c " ")) s.

(* ------------------------------------------------------------------ str methods *)

(* ASCII characters removed by str.strip() *)
Definition is_space (c : ascii) : bool :=
  let n := nat_of_ascii c in
  ((9 <=? n) && (n <=? 13) || (28 <=? n) && (n <=? 32))%nat.

Fixpoint lstrip (s : str) : str :=
  match s with
  | c :: t => if is_space c then lstrip t else s
  | [] => []
  end.
Definition rstrip (s : str) : str := rev (lstrip (rev s)).
Definition strip (s : str) : str := rstrip (lstrip s).

Fixpoint is_prefix (p s : str) : bool :=
  match p, s with
  | [], _ => true
  | a :: p', b :: s' => Ascii.eqb a b && is_prefix p' s'
  | _ :: _, [] => false
  end.

Definition removeprefix (p s : str) : str := if is_prefix p s then skipn (length p) s else s.
Definition removesuffix (p s : str) : str :=
  match p with
  | [] => s
  | _ => if is_prefix (rev p) (rev s) then firstn (length s - length p) s else s
  end.

(* s.split(sep), sep non-empty: [skip] characters of a separator are still to be consumed *)
Fixpoint split_aux (sep : str) (skip : nat) (s cur : str) : list str :=
  match s with
  | [] => [cur]
  | c :: s' =>
      match skip with
      | S k => split_aux sep k s' cur
      | O => if is_prefix sep s then cur :: split_aux sep (length sep - 1) s' []
             else split_aux sep 0 s' (cur ++ [c])
      end
  end.
Definition split_on (sep s : str) : list str := split_aux sep 0 s [].

Fixpoint all_some {T} (l : list (option T)) : option (list T) :=
  match l with
  | [] => Some []
  | Some x :: r => option_map (cons x) (all_some r)
  | None :: _ => None
  end.

(* run a from_sdmx_string descriptor; None = the implementation raises *)
Definition parse_with (p : sdmx_parser) (s : str) : option Z :=
  let s1 := if sp_strip p then strip s else s in
  let s2 := removeprefix (s2l (sp_prefix p)) s1 in
  let s3 := removesuffix (s2l (sp_suffix p)) s2 in
  let pieces := match sp_sep p with None => [s3] | Some sep => split_on (s2l sep) s3 end in
  let n := sp_npieces p in
  if Nat.eqb (length pieces) n || (sp_star p && Nat.leb n (length pieces)) then
    match all_some (map parse_int (firstn n pieces)) with
    | Some l => sp_build p l
    | None => None
    end
  else None.

(* ================================================================== lemmas *)

Lemma digit_char_spec : forall d, 0 <= d <= 9 ->
  is_digit (digit_char d) = true /\ digit_val (digit_char d) = d.
Proof.
  intros d H.
  assert (C : d = 0 \/ d = 1 \/ d = 2 \/ d = 3 \/ d = 4 \/ d = 5 \/ d = 6 \/ d = 7 \/ d = 8 \/ d = 9) by lia.
  repeat (destruct C as [C | C]); subst d; split; reflexivity.
Qed.

Lemma digits_value_app1 : forall s c, digits_value (s ++ [c]) = 10 * digits_value s + digit_val c.
Proof. intros. unfold digits_value. rewrite fold_left_app. reflexivity. Qed.

Lemma all_digits_app : forall a b, all_digits (a ++ b) = all_digits a && all_digits b.
Proof. intros. unfold all_digits. apply forallb_app. Qed.

Lemma digits_fuel_all : forall f n, 0 <= n -> all_digits (digits_fuel f n) = true.
Proof.
  induction f; intros n H; cbn [digits_fuel]; [reflexivity |].
  destruct (Z.ltb_spec n 10).
  - cbn. rewrite (proj1 (digit_char_spec n ltac:(lia))). reflexivity.
  - rewrite all_digits_app, IHf by (apply Z.div_pos; lia). cbn.
    rewrite (proj1 (digit_char_spec (n mod 10) ltac:(pose proof (Z.mod_pos_bound n 10); lia))). reflexivity.
Qed.

Lemma digits_fuel_nonempty : forall f n, digits_fuel (S f) n <> [].
Proof.
  intros f n. cbn [digits_fuel]. destruct (n <? 10); [discriminate |].
  destruct (digits_fuel f (n / 10)); discriminate.
Qed.

Lemma digits_fuel_value : forall f n, 0 <= n < 2 ^ Z.of_nat f -> digits_value (digits_fuel f n) = n.
Proof.
  induction f; intros n H; [cbn in H; cbn; lia |].
  rewrite Nat2Z.inj_succ, Z.pow_succ_r in H by lia.
  cbn [digits_fuel]. destruct (Z.ltb_spec n 10).
  - unfold digits_value. cbn. rewrite (proj2 (digit_char_spec n ltac:(lia))). lia.
  - rewrite digits_value_app1, IHf by (split; [apply Z.div_pos | apply Z.div_lt_upper_bound]; lia).
    rewrite (proj2 (digit_char_spec (n mod 10) ltac:(pose proof (Z.mod_pos_bound n 10); lia))).
    pose proof (Z.div_mod n 10). lia.
Qed.

Lemma log2_fuel : forall n, 0 <= n -> 0 <= n < 2 ^ Z.of_nat (S (Z.to_nat (Z.log2 n))).
Proof.
  intros n H. split; [assumption |].
  rewrite Nat2Z.inj_succ, Z2Nat.id by apply Z.log2_nonneg.
  destruct (Z.eq_dec n 0); [subst; reflexivity |].
  apply Z.log2_spec. lia.
Qed.

Theorem dec_nat_digits : forall n, 0 <= n -> all_digits (dec_nat n) = true /\ dec_nat n <> [].
Proof. intros. split; [apply digits_fuel_all; assumption | apply digits_fuel_nonempty]. Qed.

Theorem dec_nat_value : forall n, 0 <= n -> digits_value (dec_nat n) = n.
Proof. intros. apply digits_fuel_value, log2_fuel. assumption. Qed.

Lemma parse_nat_digits : forall s, s <> [] -> all_digits s = true -> parse_nat s = Some (digits_value s).
Proof. intros s N D. unfold parse_nat. destruct s; [congruence |]. rewrite D. reflexivity. Qed.

Theorem parse_nat_dec_nat : forall n, 0 <= n -> parse_nat (dec_nat n) = Some n.
Proof. intros n H. destruct (dec_nat_digits n H). rewrite parse_nat_digits, dec_nat_value; auto. Qed.

Lemma digit_not_sign : forall c, is_digit c = true -> Ascii.eqb c "-" = false /\ Ascii.eqb c "+" = false.
Proof.
  intros c H. split; [destruct (Ascii.eqb_spec c "-") | destruct (Ascii.eqb_spec c "+")];
    try reflexivity; subst c; discriminate H.
Qed.

Lemma parse_int_digits : forall s, s <> [] -> all_digits s = true -> parse_int s = Some (digits_value s).
Proof.
  intros s N D. destruct s as [| c t]; [congruence |].
  unfold parse_int. pose proof D as D'. cbn in D'. apply andb_true_iff in D'. destruct D' as [Dc _].
  destruct (digit_not_sign c Dc) as [-> ->]. apply parse_nat_digits; assumption.
Qed.

Theorem parse_int_dec_int : forall n, parse_int (dec_int n) = Some n.
Proof.
  intros n. unfold dec_int. destruct (Z.ltb_spec n 0).
  - unfold parse_int. cbv beta iota. rewrite Ascii.eqb_refl, parse_nat_dec_nat by lia. cbn [option_map]. f_equal. lia.
  - destruct (dec_nat_digits n H). rewrite parse_int_digits, dec_nat_value; auto.
Qed.

(* leading zeros *)
Lemma digits_value_zeros : forall k s, digits_value (repeat "0"%char k ++ s) = digits_value s.
Proof.
  intros k s. unfold digits_value. rewrite fold_left_app.
  replace (fold_left (fun a c => 10 * a + digit_val c) (repeat "0"%char k) 0) with 0; [reflexivity |].
  induction k; cbn; [reflexivity | assumption].
Qed.

Lemma all_digits_zeros : forall k, all_digits (repeat "0"%char k) = true.
Proof. induction k; cbn; auto. Qed.

Lemma pad0_digits : forall w s, all_digits s = true -> all_digits (pad w "0" s) = true.
Proof. intros. unfold pad. rewrite all_digits_app, all_digits_zeros. assumption. Qed.

Lemma pad_nonempty : forall w c s, s <> [] -> pad w c s <> [].
Proof. intros w c s N. unfold pad. destruct (repeat c (w - length s)); cbn; [assumption | discriminate]. Qed.

Lemma pad_length : forall w c s, length (pad w c s) = Nat.max w (length s).
Proof. intros. unfold pad. rewrite app_length, repeat_length. lia. Qed.

Lemma pad_short : forall w c s, (w <= length s)%nat -> pad w c s = s.
Proof. intros w c s H. unfold pad. replace (w - length s)%nat with O by lia. reflexivity. Qed.

(* number of digits *)
Lemma digits_fuel_length : forall f n k, 0 <= n < 10 ^ Z.of_nat (S k) -> (length (digits_fuel f n) <= S k)%nat.
Proof.
  induction f; intros n k H; cbn [digits_fuel]; [cbn; lia |].
  destruct (Z.ltb_spec n 10); [cbn; lia |].
  destruct k; [cbn in H; lia |].
  rewrite Nat2Z.inj_succ, Z.pow_succ_r in H by lia.
  rewrite app_length. cbn [length].
  specialize (IHf (n / 10) k ltac:(split; [apply Z.div_pos | apply Z.div_lt_upper_bound]; lia)). lia.
Qed.

Theorem dec_nat_length : forall n k, 0 <= n < 10 ^ Z.of_nat (S k) -> (1 <= length (dec_nat n) <= S k)%nat.
Proof.
  intros n k H. split; [| apply digits_fuel_length, H].
  destruct (dec_nat n) eqn:E; [destruct (digits_fuel_nonempty _ _ E) | cbn; lia].
Qed.

Theorem dec_nat_small : forall n, 0 <= n < 10 -> dec_nat n = [digit_char n].
Proof.
  intros n H. unfold dec_nat. cbn [digits_fuel]. destruct (Z.ltb_spec n 10); [reflexivity | lia].
Qed.

(* '{n:0wg}': n in decimal, padded with zeros to w characters.  Every number a period codec prints
   (a year as {:04g}, a month or day as {:02g}, a half-year or quarter as {:1g}) is such a field. *)
Definition zp (w : nat) (n : Z) : str := pad w "0" (dec_nat n).

(* a non-empty string of digits *)
Definition field (s : str) : Prop := s <> [] /\ all_digits s = true.

Lemma fmt_g_zero : forall n w, 0 <= n < 1000000 -> fmt_g n w true = Some (zp w n).
Proof.
  intros n w H. unfold fmt_g. destruct (Z.leb_spec 0 n); [| lia]. destruct (Z.ltb_spec n 1000000); [| lia]. reflexivity.
Qed.

(* at width 1 nothing is ever padded, with zeros or with blanks *)
Lemma fmt_g_one : forall n z, 0 <= n < 1000000 -> fmt_g n 1 z = Some (zp 1 n).
Proof.
  intros n z H. unfold fmt_g, zp. destruct (Z.leb_spec 0 n); [| lia]. destruct (Z.ltb_spec n 1000000); [| lia].
  pose proof (dec_nat_length n 5 ltac:(cbn; lia)). rewrite !pad_short by lia. reflexivity.
Qed.

Lemma zp_field : forall w n, 0 <= n -> field (zp w n).
Proof. intros w n H. destruct (dec_nat_digits n H). split; [apply pad_nonempty | apply pad0_digits]; assumption. Qed.

Theorem parse_int_zp : forall w n, 0 <= n -> parse_int (zp w n) = Some n.
Proof.
  intros w n H. destruct (zp_field w n H). rewrite parse_int_digits by assumption.
  unfold zp, pad. rewrite digits_value_zeros, dec_nat_value; auto.
Qed.

Lemma zp_length : forall k n, 0 <= n < 10 ^ Z.of_nat (S k) -> length (zp (S k) n) = S k.
Proof. intros k n H. unfold zp. rewrite pad_length. pose proof (dec_nat_length n k H). lia. Qed.

Lemma field_first : forall a, field a -> exists c t, a = c :: t /\ is_digit c = true.
Proof.
  intros [| c t] [N D]; [congruence |]. exists c, t. cbn in D. apply andb_true_iff in D. tauto.
Qed.

Lemma field_last : forall a, field a -> exists u d, a = u ++ [d] /\ is_digit d = true.
Proof.
  intros a [N D]. destruct (exists_last N) as (u & d & ->). exists u, d.
  rewrite all_digits_app in D. cbn in D. rewrite andb_true_r in D. apply andb_true_iff in D. tauto.
Qed.

(* fields joined by a separator: "2020-02-29" is join "-" "2020" ["02"; "29"] *)
Fixpoint join {T} (sep a : list T) (r : list (list T)) : list T :=
  match r with [] => a | b :: r' => a ++ sep ++ join sep b r' end.

Lemma join_last : forall sep r a, Forall field (a :: r) -> exists u d, join sep a r = u ++ [d] /\ is_digit d = true.
Proof.
  induction r as [| b r IH]; intros a F; inversion F as [| ? ? Fa Fr]; subst; cbn [join].
  - apply field_last, Fa.
  - destruct (IH b Fr) as (u & d & -> & D). exists (a ++ sep ++ u), d. rewrite <- !app_assoc. auto.
Qed.

Lemma digit_not_space : forall c, is_digit c = true -> is_space c = false.
Proof.
  intros c H. unfold is_digit in H. apply andb_true_iff in H. destruct H as [A _]. apply Nat.leb_le in A.
  unfold is_space. rewrite (proj2 (Nat.leb_gt _ 13)), (proj2 (Nat.leb_gt _ 32)) by lia. rewrite !andb_false_r. reflexivity.
Qed.

Lemma lstrip_nonspace : forall c t, is_space c = false -> lstrip (c :: t) = c :: t.
Proof. intros. cbn. rewrite H. reflexivity. Qed.

(* a string that starts and ends with non-blank characters is not changed by strip() *)
Theorem strip_id : forall s c t u d, s = c :: t -> s = u ++ [d] -> is_space c = false -> is_space d = false ->
  strip s = s.
Proof.
  intros s c t u d E1 E2 Sc Sd. unfold strip, rstrip. rewrite E1, lstrip_nonspace, <- E1 by assumption.
  rewrite E2 at 1. rewrite rev_app_distr. cbn [rev app]. rewrite lstrip_nonspace by assumption.
  cbn [rev]. rewrite rev_involutive. symmetry. exact E2.
Qed.

Theorem strip_join : forall sep a r, Forall field (a :: r) -> strip (join sep a r) = join sep a r.
Proof.
  intros sep a r F. destruct (join_last sep r a F) as (u & d & E & D).
  inversion F as [| ? ? Fa _]; subst. destruct (field_first a Fa) as (c & t & -> & C).
  apply (strip_id _ c (match r with [] => t | b :: r' => t ++ sep ++ join sep b r' end) u d);
    [destruct r; reflexivity | exact E | apply digit_not_space; assumption ..].
Qed.

Lemma strip_field : forall a, field a -> strip a = a.
Proof. intros a F. apply (strip_join [] a []). auto. Qed.

Lemma is_prefix_app : forall p s, is_prefix p (p ++ s) = true.
Proof. induction p; intros; cbn; [reflexivity |]. rewrite Ascii.eqb_refl. apply IHp. Qed.

Lemma removeprefix_app : forall p x, removeprefix p (p ++ x) = x.
Proof.
  intros p x. unfold removeprefix. rewrite is_prefix_app, skipn_app, skipn_all, Nat.sub_diag. reflexivity.
Qed.

Lemma removesuffix_app : forall p x, removesuffix p (x ++ p) = x.
Proof.
  intros [| c p] x; [apply app_nil_r |]. unfold removesuffix.
  rewrite rev_app_distr, is_prefix_app, app_length, Nat.add_sub, firstn_app, Nat.sub_diag, firstn_all.
  apply app_nil_r.
Qed.

Lemma is_prefix_head_false : forall c p d s, Ascii.eqb c d = false -> is_prefix (c :: p) (d :: s) = false.
Proof. intros. cbn. rewrite H. reflexivity. Qed.

Lemma split_aux_skip : forall sep p s cur, split_aux sep (length p) (p ++ s) cur = split_aux sep 0 s cur.
Proof. induction p; intros; cbn; [destruct s; reflexivity | apply IHp]. Qed.

(* digits are gathered into the current piece *)
Lemma split_aux_digits : forall c sep a rest cur, is_digit c = false -> all_digits a = true ->
  split_aux (c :: sep) 0 (a ++ rest) cur = split_aux (c :: sep) 0 rest (cur ++ a).
Proof.
  intros c sep a rest. induction a as [| x a IH]; intros cur Hc Ha; [rewrite app_nil_r; reflexivity |].
  cbn in Ha. apply andb_true_iff in Ha. destruct Ha as [Hx Ha].
  cbn [app split_aux]. rewrite is_prefix_head_false.
  - rewrite IH, <- app_assoc by assumption. reflexivity.
  - destruct (Ascii.eqb_spec c x); [subst; congruence | reflexivity].
Qed.

Theorem split_on_digits_sep : forall c sep a rest, is_digit c = false -> all_digits a = true ->
  split_on (c :: sep) (a ++ (c :: sep) ++ rest) = a :: split_on (c :: sep) rest.
Proof.
  intros c sep a rest C D. unfold split_on. rewrite split_aux_digits by assumption.
  cbn [app split_aux]. change (c :: sep ++ rest) with ((c :: sep) ++ rest).
  rewrite is_prefix_app. cbn [length Nat.sub]. rewrite Nat.sub_0_r, split_aux_skip. reflexivity.
Qed.

Theorem split_on_digits_end : forall c sep a, is_digit c = false -> all_digits a = true ->
  split_on (c :: sep) a = [a].
Proof.
  intros c sep a C D. unfold split_on. rewrite <- (app_nil_r a) at 1. rewrite split_aux_digits by assumption. reflexivity.
Qed.

Theorem split_on_join : forall c sep r a, is_digit c = false -> Forall field (a :: r) ->
  split_on (c :: sep) (join (c :: sep) a r) = a :: r.
Proof.
  induction r as [| b r IH]; intros a C F; inversion F as [| ? ? [_ Da] Fr]; subst; cbn [join].
  - apply split_on_digits_end; assumption.
  - rewrite split_on_digits_sep, IH by assumption. reflexivity.
Qed.

Lemma zp_shape : forall k n, 0 <= n < 10 ^ Z.of_nat (S k) -> atoms_match (repeat ADigit (S k)) (zp (S k) n) = true.
Proof. intros k n H. rewrite atoms_match_digits, zp_length, Nat.eqb_refl by assumption. apply zp_field. lia. Qed.

Lemma chars_shape : forall s, atoms_match (map AChr s) s = true.
Proof. induction s as [| c s IH]; [reflexivity |]. cbn. rewrite Ascii.eqb_refl. exact IH. Qed.

(* fields of the widths w :: ws joined by sep fit the pattern \d{w} sep \d{w'} sep ... *)
Lemma join_shape : forall sep ws r w a,
  Forall2 (fun w x => atoms_match (repeat ADigit w) x = true) (w :: ws) (a :: r) ->
  atoms_match (join (map AChr sep) (repeat ADigit w) (map (repeat ADigit) ws)) (join sep a r) = true.
Proof.
  induction ws as [| w' ws IH]; intros r w a F; inversion F as [| ? ? ? ? Fa Fr]; subst.
  - inversion Fr; subst. exact Fa.
  - inversion Fr as [| ? b ? r' _ _]; subst. cbn [map join].
    apply atoms_match_app. exists a, (sep ++ join sep b r'). split; [reflexivity |]. split; [exact Fa |].
    apply atoms_match_app. exists sep, (join sep b r'). auto using chars_shape.
Qed.

Lemma all_some_map_some : forall (T : Type) (l : list T), all_some (map Some l) = Some l.
Proof. induction l; cbn; [reflexivity | rewrite IHl; reflexivity]. Qed.

(* a text prefix ++ body ++ suffix whose body splits into pieces that int() reads as ns *)
Theorem parse_with_spec : forall ps (s body : str) pieces ns,
  s = s2l (sp_prefix ps) ++ body ++ s2l (sp_suffix ps) ->
  (sp_strip ps = true -> strip s = s) ->
  match sp_sep ps with None => [body] | Some sep => split_on (s2l sep) body end = pieces ->
  length pieces = sp_npieces ps ->
  map parse_int pieces = map Some ns ->
  parse_with ps s = sp_build ps ns.
Proof.
  intros ps s body pieces ns E St Sp Ln Pi. unfold parse_with. cbv zeta.
  replace (if sp_strip ps then strip s else s) with s by (destruct (sp_strip ps); [symmetry; auto | reflexivity]).
  rewrite E, removeprefix_app, removesuffix_app, Sp, Ln, Nat.eqb_refl. cbn [orb].
  rewrite <- Ln, firstn_all, Pi, all_some_map_some. reflexivity.
Qed.

Lemma render_app : forall a b x y, render a = Some x -> render b = Some y -> render (a ++ b) = Some (x ++ y).
Proof.
  induction a; intros b x y Ha Hb; cbn in *.
  - injection Ha as <-. assumption.
  - destruct (render_piece a) as [p |]; [| discriminate]. destruct (render a0) as [q |]; [| discriminate].
    injection Ha as <-. rewrite (IHa b q y eq_refl Hb). rewrite app_assoc. reflexivity.
Qed.
