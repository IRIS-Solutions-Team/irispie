(* Plan bookkeeping (model/Plans.v, Part A): the registers of a SimulationPlan after ANY history of
   exogenize_* / endogenize_* / swap_* calls are "last write wins" over the elementary writes the calls
   perform; shape invariants; the views the simulators read. *)
From Coq Require Import List Bool Arith ZArith Lia.
From Verif Require Import model.Plans.
Import ListNotations.

Lemma length_set_nth {A} (l : list A) k v : length (set_nth l k v) = length l.
Proof. revert k; induction l as [|x l IH]; intros [|k]; simpl; auto. Qed.

Lemma nth_set_nth {A} (l : list A) k v i d :
  nth i (set_nth l k v) d = if (i =? k) && (k <? length l) then v else nth i l d.
Proof.
  revert k i; induction l as [|x l IH]; intros k i.
  - simpl. replace (k <? 0) with false by (symmetry; apply Nat.ltb_ge; lia).
    rewrite andb_false_r. destruct k; reflexivity.
  - destruct k as [|k], i as [|i]; simpl; auto.
    rewrite IH. reflexivity.
Qed.

(* writing one status at several positions of a row *)
Definition write_row (row : list status) (ts : list nat) (v : status) : list status :=
  fold_left (fun row t => set_nth row t v) ts row.

Lemma length_write_row row ts v : length (write_row row ts v) = length row.
Proof.
  unfold write_row; revert row; induction ts as [|t ts IH]; intros row; simpl; auto.
  rewrite IH, length_set_nth; reflexivity.
Qed.

Lemma nth_write_row row ts v k :
  nth k (write_row row ts v) SNone = if existsb (Nat.eqb k) ts && (k <? length row) then v else nth k row SNone.
Proof.
  unfold write_row; revert row; induction ts as [|t ts IH]; intros row; simpl; auto.
  rewrite IH, length_set_nth, nth_set_nth.
  destruct (k =? t) eqn:E; simpl.
  - apply Nat.eqb_eq in E; subst t. destruct (k <? length row); simpl.
    + destruct (existsb (Nat.eqb k) ts); reflexivity.
    + rewrite andb_false_r; reflexivity.
  - reflexivity.
Qed.

Definition wf_reg (nper : nat) (g : register) : Prop := Forall (fun row => length row = nper) g.

Lemma write_points_cons g n ns ts v :
  write_points g (n :: ns) ts v = write_points (set_nth g n (write_row (nth n g []) ts v)) ns ts v.
Proof. reflexivity. Qed.

Lemma wf_nth nper g n : wf_reg nper g -> n < length g -> length (nth n g []) = nper.
Proof.
  intros H; revert n; induction H as [|x g Hx Hg IH]; intros [|n] Hn; simpl in *; try lia; auto.
  apply IH; lia.
Qed.

Lemma wf_write_name nper g n ts v : wf_reg nper g -> wf_reg nper (set_nth g n (write_row (nth n g []) ts v)).
Proof.
  intros H; revert n; induction H as [|x g Hx Hg IH]; intros [|n]; simpl; constructor; auto.
  - rewrite length_write_row; assumption.
  - apply IH.
Qed.

Lemma write_points_shape nper g ns ts v : wf_reg nper g ->
  wf_reg nper (write_points g ns ts v) /\ length (write_points g ns ts v) = length g.
Proof.
  revert g; induction ns as [|n ns IH]; intros g H; [split; auto|].
  rewrite write_points_cons.
  destruct (IH _ (wf_write_name nper g n ts v H)) as [A B].
  split; auto. rewrite B; apply length_set_nth.
Qed.

Definition gpoint (g : register) (n k : nat) : status := nth k (nth n g []) SNone.

(* what write_points does for one name; a name outside the register changes nothing *)
Lemma gpoint_write_name nper g m ts v n k : wf_reg nper g ->
  gpoint (set_nth g m (write_row (nth m g []) ts v)) n k =
  if (n =? m) && (n <? length g) && existsb (Nat.eqb k) ts && (k <? nper) then v else gpoint g n k.
Proof.
  intros H; unfold gpoint; rewrite nth_set_nth.
  destruct (n =? m) eqn:E; simpl; auto.
  apply Nat.eqb_eq in E; subst m.
  destruct (n <? length g) eqn:L; simpl; auto.
  rewrite nth_write_row, (wf_nth nper g n H) by (apply Nat.ltb_lt; assumption).
  reflexivity.
Qed.

Lemma gpoint_write_points nper g ns ts v n k : wf_reg nper g ->
  gpoint (write_points g ns ts v) n k =
  if existsb (Nat.eqb n) ns && (n <? length g) && existsb (Nat.eqb k) ts && (k <? nper) then v else gpoint g n k.
Proof.
  revert g; induction ns as [|m ns IH]; intros g H; [reflexivity|].
  rewrite write_points_cons, (IH _ (wf_write_name nper g m ts v H)), length_set_nth, (gpoint_write_name nper) by assumption.
  simpl existsb.
  destruct (n =? m), (existsb (Nat.eqb n) ns), (n <? length g), (existsb (Nat.eqb k) ts), (k <? nper); reflexivity.
Qed.

Definition point (p : plan) (r : rname) (n k : nat) : status := gpoint (get_register p r) n k.
Definition wf_plan (p : plan) : Prop := forall r, wf_reg (pl_nper p) (get_register p r).
Definition same_shape (p q : plan) : Prop :=
  pl_start p = pl_start q /\ pl_nper p = pl_nper q /\ forall r, length (get_register p r) = length (get_register q r).

Lemma same_shape_refl p : same_shape p p.
Proof. repeat split; auto. Qed.
Lemma same_shape_sym p q : same_shape p q -> same_shape q p.
Proof. intros (A & B & C); repeat split; auto. Qed.
Lemma same_shape_trans p q s : same_shape p q -> same_shape q s -> same_shape p s.
Proof. intros (A & B & C) (A' & B' & C'); split; [congruence|split; [congruence|]]. intros r; rewrite C; apply C'. Qed.

Lemma rname_eqb_eq a b : rname_eqb a b = true <-> a = b.
Proof. destruct a, b; simpl; split; intros; try reflexivity; try discriminate. Qed.

Lemma get_set_register p r g r' :
  get_register (set_register p r g) r' = if rname_eqb r' r then g else get_register p r'.
Proof. destruct r, r'; reflexivity. Qed.
Lemma set_register_start p r g : pl_start (set_register p r g) = pl_start p.
Proof. destruct r; reflexivity. Qed.
Lemma set_register_nper p r g : pl_nper (set_register p r g) = pl_nper p.
Proof. destruct r; reflexivity. Qed.

(* the elementary write a valid call performs: one status on names x period indexes of one register *)
Record ewrite := mkEw { ew_reg : rname; ew_names : list nat; ew_periods : list nat; ew_status : status }.

Definition ew_of (p : plan) (r : rname) (dates : sel Z) (names : sel nat) (v : status) : option ewrite :=
  match resolve_names (get_register p r) names, resolve_periods p dates with
  | Some ns, Some ts => Some (mkEw r ns ts v)
  | _, _ => None
  end.
Definition ew_covers (w : ewrite) (r : rname) (n k : nat) : bool :=
  rname_eqb r (ew_reg w) && existsb (Nat.eqb n) (ew_names w) && existsb (Nat.eqb k) (ew_periods w).
Definition apply_ew (r : rname) (n k : nat) (st : status) (w : ewrite) : status :=
  if ew_covers w r n k then ew_status w else st.

Lemma existsb_eqb_In n l : existsb (Nat.eqb n) l = true -> In n l.
Proof. intros H; apply existsb_exists in H; destruct H as (x & Hx & E); apply Nat.eqb_eq in E; subst; auto. Qed.

Lemma resolve_names_bound g names ns n :
  resolve_names g names = Some ns -> existsb (Nat.eqb n) ns = true -> n <? length g = true.
Proof.
  intros E H; apply existsb_eqb_In in H; apply Nat.ltb_lt; destruct names as [|l]; simpl in E.
  - inversion E; subst. apply in_seq in H; lia.
  - destruct (forallb _ l) eqn:F; inversion E; subst. rewrite forallb_forall in F. apply Nat.ltb_lt, F, H.
Qed.

Lemma resolve_periods_bound p dates ts k :
  resolve_periods p dates = Some ts -> existsb (Nat.eqb k) ts = true -> k <? pl_nper p = true.
Proof.
  intros E H; apply existsb_eqb_In in H; apply Nat.ltb_lt; destruct dates as [|l]; simpl in E.
  - inversion E; subst. apply in_seq in H; lia.
  - destruct (forallb _ l) eqn:F; inversion E; subst. rewrite forallb_forall in F.
    apply in_map_iff in H; destruct H as (d & Ed & Hd). specialize (F d Hd). unfold in_span in F.
    apply andb_prop in F; destruct F as [F1 F2]. apply Z.leb_le in F1. apply Z.ltb_lt in F2. lia.
Qed.

Lemma ew_of_shape p q r dates names v : same_shape p q -> ew_of p r dates names v = ew_of q r dates names v.
Proof.
  intros (A & B & C). unfold ew_of.
  assert (E1 : resolve_names (get_register p r) names = resolve_names (get_register q r) names).
  { destruct names; simpl; rewrite (C r); reflexivity. }
  assert (E2 : resolve_periods p dates = resolve_periods q dates).
  { destruct dates; simpl; unfold in_span; rewrite ?A, ?B; reflexivity. }
  rewrite E1, E2; reflexivity.
Qed.

(* one validated write: shape kept, exactly the covered points change *)
Lemma write_to_register_spec p r dates names v : wf_plan p ->
  let p' := fst (write_to_register p r dates names v) in
  wf_plan p' /\ same_shape p p' /\
  (forall r' n k, point p' r' n k =
     match ew_of p r dates names v with Some w => apply_ew r' n k (point p r' n k) w | None => point p r' n k end).
Proof.
  intros W. unfold write_to_register, ew_of.
  destruct (resolve_names (get_register p r) names) as [ns|] eqn:En; simpl.
  2:{ repeat split; auto. }
  destruct (resolve_periods p dates) as [ts|] eqn:Et; simpl.
  2:{ repeat split; auto. }
  destruct (write_points_shape (pl_nper p) (get_register p r) ns ts v (W r)) as [Wg Lg].
  split; [|split].
  - intros r'. rewrite set_register_nper, get_set_register. destruct (rname_eqb r' r); auto.
  - split; [symmetry; apply set_register_start|split; [symmetry; apply set_register_nper|]].
    intros r'. rewrite get_set_register. destruct (rname_eqb r' r) eqn:E; auto.
    apply rname_eqb_eq in E; subst; auto.
  - intros r' n k. unfold point, apply_ew, ew_covers; simpl. rewrite get_set_register.
    destruct (rname_eqb r' r) eqn:E; simpl; auto.
    apply rname_eqb_eq in E; subst r'.
    rewrite (gpoint_write_points (pl_nper p)); auto.
    destruct (existsb (Nat.eqb n) ns) eqn:E1; simpl; auto.
    rewrite (resolve_names_bound _ _ _ _ En E1); simpl.
    destruct (existsb (Nat.eqb k) ts) eqn:E2; simpl; auto.
    rewrite (resolve_periods_bound _ _ _ _ Et E2); reflexivity.
Qed.

(* the elementary writes of swap_*: pair after pair, variable then shock, up to the first write that raises *)
Fixpoint swap_ews (p : plan) (rx rn : rname) (dates : sel Z) (pairs : list (nat * nat)) (v : status) : list ewrite :=
  match pairs with
  | [] => []
  | (x, e) :: rest =>
      match ew_of p rx dates (These [x]) v with
      | None => []
      | Some w1 =>
          w1 :: match ew_of p rn dates (These [e]) v with
                | None => []
                | Some w2 => w2 :: swap_ews p rx rn dates rest v
                end
      end
  end.

Definition ewrites_of_call (p : plan) (c : call) : list ewrite :=
  match c with
  | Write r dates names b =>
      match ew_of p r dates names (status_of_bool b) with Some w => [w] | None => [] end
  | Swap ant dates pairs b =>
      swap_ews p (if ant then ExogAnt else ExogUnant) (if ant then EndogAnt else EndogUnant) dates pairs (status_of_bool b)
  end.

Definition after_writes (r : rname) (n k : nat) (st : status) (ws : list ewrite) : status :=
  fold_left (apply_ew r n k) ws st.

Lemma swap_ews_shape p q rx rn dates pairs v : same_shape p q ->
  swap_ews p rx rn dates pairs v = swap_ews q rx rn dates pairs v.
Proof.
  intros S; induction pairs as [|[x e] rest IH]; simpl; auto.
  rewrite !(ew_of_shape p q) by auto. rewrite IH; reflexivity.
Qed.

Lemma ewrites_of_call_shape p q c : same_shape p q -> ewrites_of_call p c = ewrites_of_call q c.
Proof.
  intros S; destruct c; simpl.
  - rewrite (ew_of_shape p q) by auto; reflexivity.
  - apply swap_ews_shape; auto.
Qed.

(* a write either raises and leaves the plan as it is, or performs its elementary write *)
Lemma write_to_register_cases p r dates names v : wf_plan p ->
  match ew_of p r dates names v with
  | Some w => exists p', write_to_register p r dates names v = (p', ROk) /\ wf_plan p' /\ same_shape p p' /\
                         forall r' n k, point p' r' n k = apply_ew r' n k (point p r' n k) w
  | None => exists res, write_to_register p r dates names v = (p, res) /\ res <> ROk
  end.
Proof.
  intros W. generalize (write_to_register_spec p r dates names v W). unfold write_to_register, ew_of.
  destruct (resolve_names (get_register p r) names); [destruct (resolve_periods p dates)|]; simpl; intros H.
  - eexists; split; [reflexivity|exact H].
  - exists RInvalidPeriods; split; [reflexivity|discriminate].
  - exists RInvalidNames; split; [reflexivity|discriminate].
Qed.

Lemma swap_pairs_spec rx rn dates v pairs : forall p, wf_plan p ->
  let p' := fst (swap_pairs p rx rn dates pairs v) in
  wf_plan p' /\ same_shape p p' /\
  (forall r n k, point p' r n k = after_writes r n k (point p r n k) (swap_ews p rx rn dates pairs v)).
Proof.
  induction pairs as [|[x e] rest IH]; intros p W; simpl.
  - repeat split; auto.
  - generalize (write_to_register_cases p rx dates (These [x]) v W).
    destruct (ew_of p rx dates (These [x]) v) as [w1|].
    2:{ intros (res & -> & Hr). destruct res; try congruence; simpl; repeat split; auto. }
    intros (p1 & -> & W1 & S1 & P1).
    generalize (write_to_register_cases p1 rn dates (These [e]) v W1). rewrite <- (ew_of_shape p p1) by exact S1.
    destruct (ew_of p rn dates (These [e]) v) as [w2|].
    2:{ intros (res & -> & Hr). destruct res; try congruence; simpl; (split; [|split]); auto. }
    intros (p2 & -> & W2 & S2 & P2).
    destruct (IH p2 W2) as (W3 & S3 & P3).
    assert (S : same_shape p p2) by (eapply same_shape_trans; eauto).
    split; [auto|split; [eapply same_shape_trans; eauto|]].
    intros r n k. rewrite P3, P2, P1. simpl.
    rewrite (swap_ews_shape p2 p) by (apply same_shape_sym; exact S). reflexivity.
Qed.

Lemma apply_call_spec p c : wf_plan p ->
  let p' := fst (apply_call p c) in
  wf_plan p' /\ same_shape p p' /\
  (forall r n k, point p' r n k = after_writes r n k (point p r n k) (ewrites_of_call p c)).
Proof.
  intros W; destruct c as [r dates names b|ant dates pairs b]; simpl.
  - destruct (write_to_register_spec p r dates names (status_of_bool b) W) as (W1 & S1 & P1).
    split; [auto|split; [auto|]]. intros r' n k; rewrite P1.
    destruct (ew_of p r dates names (status_of_bool b)); reflexivity.
  - apply swap_pairs_spec; auto.
Qed.

Lemma apply_calls_fst p c cs :
  fst (apply_calls p (c :: cs)) = fst (apply_calls (fst (apply_call p c)) cs).
Proof. simpl. destruct (apply_call p c) as [p1 res]; simpl. destruct (apply_calls p1 cs); reflexivity. Qed.

Lemma after_writes_app r n k st ws1 ws2 :
  after_writes r n k st (ws1 ++ ws2) = after_writes r n k (after_writes r n k st ws1) ws2.
Proof. unfold after_writes; apply fold_left_app. Qed.

(* the state machine invariant, by induction over the call history *)
Theorem apply_calls_spec cs : forall p, wf_plan p ->
  let p' := fst (apply_calls p cs) in
  wf_plan p' /\ same_shape p p' /\
  (forall r n k, point p' r n k = after_writes r n k (point p r n k) (flat_map (ewrites_of_call p) cs)).
Proof.
  induction cs as [|c cs IH]; intros p W.
  - simpl; repeat split; auto.
  - rewrite apply_calls_fst.
    destruct (apply_call_spec p c W) as (W1 & S1 & P1).
    destruct (IH (fst (apply_call p c)) W1) as (W2 & S2 & P2).
    split; [auto|split; [eapply same_shape_trans; eauto|]].
    intros r n k. rewrite P2, P1. simpl flat_map. rewrite after_writes_app.
    f_equal. clear -S1. induction cs as [|c' cs IHc]; simpl; auto.
    rewrite IHc, (ewrites_of_call_shape p (fst (apply_call p c))); auto.
Qed.

(* a fresh plan *)
Lemma wf_new_plan start nper nvar nshock : wf_plan (new_plan start nper nvar nshock).
Proof.
  intros r; destruct r; simpl; unfold wf_reg, empty_register; apply Forall_forall; intros x Hx;
    apply repeat_spec in Hx; subst; apply repeat_length.
Qed.

Lemma nth_repeat_d {A} (x d : A) a n : nth n (repeat x a) d = if n <? a then x else d.
Proof.
  revert n; induction a as [|a IH]; intros [|n]; simpl; auto.
  rewrite IH. reflexivity.
Qed.

Lemma point_new_plan start nper nvar nshock r n k : point (new_plan start nper nvar nshock) r n k = SNone.
Proof.
  unfold point, gpoint.
  assert (H : forall a b n k, nth k (nth n (empty_register a b) []) SNone = SNone).
  { intros a b n0 k0. unfold empty_register. rewrite nth_repeat_d.
    destruct (n0 <? a); [rewrite nth_repeat_d; destruct (k0 <? b); reflexivity | destruct k0; reflexivity]. }
  destruct r; simpl; apply H.
Qed.

(* registers after any history on a fresh plan: the status written by the last elementary write covering the
   point (None if there is none); the elementary writes of a call depend only on the span and the number of names *)
Theorem registers_last_write_wins start nper nvar nshock cs r n k :
  let p0 := new_plan start nper nvar nshock in
  point (fst (apply_calls p0 cs)) r n k = after_writes r n k SNone (flat_map (ewrites_of_call p0) cs).
Proof.
  intros p0. destruct (apply_calls_spec cs p0 (wf_new_plan _ _ _ _)) as (_ & _ & P).
  rewrite P. unfold p0. rewrite point_new_plan. reflexivity.
Qed.

Lemma nth_map_lt {A B} (f : A -> B) l i d d' : i < length l -> nth i (map f l) d' = f (nth i l d).
Proof. intros H; rewrite (nth_indep _ d' (f d)) by (rewrite map_length; exact H). apply map_nth. Qed.

(* get_register_as_bool_array: entry (name i, period j) is the bool of the register point; False outside the span *)
Theorem bool_array_spec p r names periods i j : i < length names -> j < length periods ->
  nth j (nth i (bool_array p r names periods) []) false =
  let d := nth j periods 0%Z in
  if in_span p d then status_bool (point p r (nth i names 0) (Z.to_nat (d - pl_start p))) else false.
Proof.
  intros Hi Hj. unfold bool_array.
  rewrite (nth_map_lt _ names i 0), (nth_map_lt _ periods j 0%Z) by assumption. reflexivity.
Qed.

Lemma existsb_nth_iff {A} (f : A -> bool) l d : f d = false ->
  existsb f l = true <-> exists k, f (nth k l d) = true.
Proof.
  intros Hd; split.
  - intros H; apply existsb_exists in H; destruct H as (x & Hx & Ha).
    destruct (In_nth _ _ d Hx) as (k & _ & E). exists k; rewrite E; auto.
  - intros (k & Hk). apply existsb_exists.
    destruct (Nat.lt_ge_cases k (length l)) as [L|L].
    + exists (nth k l d); split; auto. apply nth_In; auto.
    + rewrite nth_overflow in Hk by auto. congruence.
Qed.

Lemma has_points_spec g : has_points g = true <-> exists n k, is_active (gpoint g n k) = true.
Proof.
  unfold has_points, gpoint. rewrite (existsb_nth_iff _ g []) by reflexivity.
  split; intros (n & H); exists n; apply (existsb_nth_iff is_active _ SNone); auto.
Qed.

