(* A lawful carrier with a recognisable missing value: option Z (None = missing).
   It shows that the carrier laws assumed by the Series theorems are satisfiable and is the carrier of the
   evaluated examples. *)
From Coq Require Import ZArith.
From Verif Require Import lib.Arith.

Definition lift2 (f : Z -> Z -> Z) (a b : option Z) : option Z :=
  match a, b with Some x, Some y => Some (f x y) | _, _ => None end.

Definition OZArith : Arith := {|
  car := option Z;
  add := lift2 Z.add; sub := lift2 Z.sub; mul := lift2 Z.mul; div := lift2 Z.div;
  neg := option_map Z.opp; ofZ := Some;
  ln := fun x => x; exp := fun x => x; pow := lift2 Z.pow;
  miss := None;
  is_miss := fun x => match x with None => true | Some _ => false end |}.

Lemma OZ_miss_law : forall x : car OZArith, is_miss OZArith x = true -> x = miss OZArith.
Proof. intros [x|] H; [discriminate|reflexivity]. Qed.

Lemma OZ_miss_is_miss : is_miss OZArith (miss OZArith) = true.
Proof. reflexivity. Qed.
