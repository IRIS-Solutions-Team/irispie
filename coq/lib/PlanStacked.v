(* C07 for method="stacked_time": consequences of the frames / wrt_spots model of C06 (model/Stacked.v,
   proofs/StackedProofs.v) for simulation plans. *)
From Coq Require Import ZArith List.
From Verif Require Import model.Stacked proofs.StackedProofs.
Import ListNotations.
Open Scope Z_scope.

(* outside the rows of the endogenous (transition) variables, the only unknown cells of a frame are the
   endogenized cells of the plan: anticipated ones in any column of the frame, unanticipated ones in its
   first column *)
Theorem shock_unknowns_are_endogenized : forall p cols qids q c,
  ~ In q qids -> In (q, c) (wrt_spots (Some p) cols qids) -> In (q, c) (endogenized_spots p cols).
Proof.
  intros p cols qids q c Hq Hw. unfold wrt_spots in Hw. apply swap_spots_In in Hw.
  destruct Hw as [[Hb _]|He]; auto.
  apply base_spots_In in Hb. tauto.
Qed.
