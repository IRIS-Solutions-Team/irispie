(* The ordinary simulation that C07's conditional simulation returns (proofs/PlansProofs.v: flat_path with the
   anticipated impact ant_impact of the expansion Rx[k]) IS the model of simulate_flat that C01 proves to satisfy
   the model equations (model/Ford.v: flat_run with anticipated_impacts), on MathComp matrices. *)
From mathcomp Require Import all_ssreflect all_algebra.
From Verif.lib Require Import MatOps MatMC MatLemmas.
From Verif.model Require Import Kalman Plans.
From Verif.proofs Require Import PlansProofs.
From Verif.model Require Ford.
From Verif.proofs Require FordProofs FordSimProofs.
Set Implicit Arguments.
Unset Strict Implicit.
Unset Printing Implicit Defensive.
Import GRing.Theory Num.Theory.
Local Open Scope ring_scope.

Section Bridge.
Variable F : realFieldType.
Variables (flog : F -> F) (flog2pi : F).
Notation M := (MC flog flog2pi).
Notation O := (FordProofs.MCOps F).
Variables n nu nf : nat.
Variables (T : 'M[F]_n) (P : 'M[F]_(n, nu)) (K : 'cV[F]_n) (X : 'M[F]_(n, nf)) (J : 'M[F]_nf) (Ru : 'M[F]_(nf, nu)).
Notation s := (@mkCsys M n nu T P K).
Notation Rx := (@expand_at M n nu nf P X J Ru).
Notation isum := (@imp_sum M n nu Rx).
Notation ant := (@FordSimProofs.ant F nf nu J Ru).

(* the two matrix powers (J^k built from the left / from the right) coincide *)
Lemma mpowE k : @Plans.mpow M nf J k = @Ford.mpow O nf J k.
Proof.
elim: k => [|k IH] //=; rewrite IH.
elim: k {IH} => [|k IH] /=; first by rewrite mulmx1 mul1mx.
by rewrite -mulmxA -IH.
Qed.

(* shocks dated after t: Rx[k+1] v_{t+k+1} + ... = - X J^k (Ru v_{t+k+1} + J (Ru v_{t+k+2} + ...)) *)
Lemma isum_tail t k (l : seq 'cV[F]_nu) :
  isum t (t + k.+1)%N l = - (X *m @Plans.mpow M nf J k *m ant l).
Proof.
elim: l k => [|v l IH] k /=; first by rewrite mulmx0 oppr0.
rewrite ltbE ltnNge leq_addr /=.
have -> : (t + k.+1 - t)%coq_nat = k.+1 by rewrite -[LHS]/((t + k.+1) - t)%N addKn.
rewrite -addnS IH /= mulmxDr !mulmxA opprD; congr (_ + _).
by rewrite !mulNmx.
Qed.

Lemma isum_skip t i (l : seq 'cV[F]_nu) : (i <= t)%N -> isum t i l = isum t t (drop (t - i) l).
Proof.
elim: l i => [|v l IH] i le /=; first by [].
case: (ltngtP i t) le => // [lt _|-> _]; last by rewrite subnn.
by rewrite ltbE lt add0r IH // -(subnSK lt).
Qed.

(* the impact the conditional simulator adds in column t is the one C01 characterises: P v_t - X a_t *)
Theorem ant_impact_is_C01 (vs : seq 'cV[F]_nu) t : (t < size vs)%N ->
  @ant_impact M n nu Rx vs t = P *m nth 0 vs t - X *m ant (drop t.+1 vs).
Proof.
move=> lt; rewrite /ant_impact isum_skip // subn0 (drop_nth 0 lt) /=.
rewrite ltbE ltnn /= (_ : (t - t)%coq_nat = 0%N); last by rewrite -[LHS]/(t - t)%N subnn.
by rewrite -[X in isum t X]addn1 isum_tail /= mulmx1.
Qed.

Lemma flat_run_path (imp : nat -> 'cV[F]_n) (imps : seq (option 'cV[F]_n)) t0 (a0 : 'cV[F]_n) (us : seq 'cV[F]_nu) :
  size us = size (drop t0 imps) ->
  (forall t, (t < size us)%N -> FordSimProofs.imp_val (nth None (drop t0 imps) t) = imp (t0 + t)%N) ->
  flat_path s imp t0 a0 us = @Ford.flat_run O n nu T K P a0 us (drop t0 imps).
Proof.
elim: us a0 t0 => [|u us IH] a0 t0 /=; first by case: (drop _ _).
case E: (drop t0 imps) => [|i r] //= [sz] H.
rewrite FordSimProofs.flat_stepE (H 0%N isT) addn0; congr (_ :: _).
have Er : r = drop t0.+1 imps by rewrite -[t0.+1]addn1 addnC -drop_drop E /= drop0.
rewrite Er; apply: IH; first by rewrite -Er.
by move=> t lt; rewrite -Er addSnnS -(H t.+1).
Qed.

(* the ordinary simulation of PlansProofs is C01's flat_run with C01's anticipated impacts *)
Theorem flat_path_is_C01 (vs us : seq 'cV[F]_nu) (a0 : 'cV[F]_n) : size us = size vs ->
  flat_path s (@ant_impact M n nu Rx vs) 0 a0 us
  = @Ford.flat_run O n nu T K P a0 us (@Ford.anticipated_impacts O n nf nu P X J Ru vs).
Proof.
move=> sz.
have H t : (t < size vs)%N ->
    FordSimProofs.imp_val (nth None (@Ford.anticipated_impacts O n nf nu P X J Ru vs) t) = @ant_impact M n nu Rx vs t.
  by move=> lt; have [_ ->] := FordSimProofs.impacts_spec P X J Ru lt; rewrite ant_impact_is_C01.
have szi : size (@Ford.anticipated_impacts O n nf nu P X J Ru vs) = size vs.
  case: (vs) => [|v0 r]; first by [].
  by have [-> _] := @FordSimProofs.impacts_spec F n nf nu P X J Ru (v0 :: r) 0 isT.
set imps := Ford.anticipated_impacts _ _ _ _ _ _ in H szi *.
have -> : imps = drop 0 imps by rewrite drop0.
apply: flat_run_path; first by rewrite drop0 szi.
by move=> t lt; rewrite drop0 add0n H // -sz.
Qed.

End Bridge.
