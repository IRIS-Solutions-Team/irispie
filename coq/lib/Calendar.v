(* Proleptic Gregorian calendar, as implemented by CPython's datetime.date:
   ordinal 1 = 0001-01-01; date(y,m,d).toordinal() = ord_of_ymd y m d;
   date.fromordinal(n) = ymd_of_ord n.  Tied to CPython by the C09/C11
   correspondence runs (every year and month boundary, rolling hash over all
   ordinals in the thorough tier).  Definitions first, theorems below. *)
From Coq Require Import ZArith Lia Bool List.
Import ListNotations.
Open Scope Z_scope.

Definition is_leap (y : Z) : bool :=
  ((y mod 4 =? 0) && negb (y mod 100 =? 0)) || (y mod 400 =? 0).

Definition year_len (y : Z) : Z := if is_leap y then 366 else 365.

(* number of days before January 1st of year y *)
Definition days_before_year (y : Z) : Z :=
  365 * (y - 1) + (y - 1) / 4 - (y - 1) / 100 + (y - 1) / 400.

Definition days_in_month (y m : Z) : Z :=
  if m =? 2 then (if is_leap y then 29 else 28)
  else if (m =? 4) || (m =? 6) || (m =? 9) || (m =? 11) then 30
  else 31.

Definition leap_add (y : Z) : Z := if is_leap y then 1 else 0.

(* number of days of year y before the first day of month m *)
Definition days_before_month (y m : Z) : Z :=
  if m <=? 1 then 0
  else if m =? 2 then 31
  else (if m =? 3 then 59 else if m =? 4 then 90 else if m =? 5 then 120 else if m =? 6 then 151
        else if m =? 7 then 181 else if m =? 8 then 212 else if m =? 9 then 243 else if m =? 10 then 273
        else if m =? 11 then 304 else 334) + leap_add y.

Definition ord_of_ymd (y m d : Z) : Z := days_before_year y + days_before_month y m + d.

Definition valid_ymd (y m d : Z) : Prop := 1 <= y /\ 1 <= m <= 12 /\ 1 <= d <= days_in_month y m.

Definition valid_ymdb (y m d : Z) : bool :=
  (1 <=? y) && (1 <=? m) && (m <=? 12) && (1 <=? d) && (d <=? days_in_month y m).

(* year containing ordinal n: a guess from the mean year length, corrected by at most one *)
Definition year_of_ord (n : Z) : Z :=
  let y := (400 * (n - 1)) / 146097 + 1 in
  if n <=? days_before_year y then y - 1
  else if days_before_year (y + 1) <? n then y + 1
  else y.

(* month containing the k-th day (1-based) of year y *)
Definition month_of_doy (y k : Z) : Z :=
  let b := leap_add y in
  if k <=? 31 then 1 else if k <=? 59 + b then 2 else if k <=? 90 + b then 3 else if k <=? 120 + b then 4
  else if k <=? 151 + b then 5 else if k <=? 181 + b then 6 else if k <=? 212 + b then 7
  else if k <=? 243 + b then 8 else if k <=? 273 + b then 9 else if k <=? 304 + b then 10
  else if k <=? 334 + b then 11 else 12.

Definition doy_of_ord (n : Z) : Z := n - days_before_year (year_of_ord n).

Definition ymd_of_ord (n : Z) : Z * Z * Z :=
  let y := year_of_ord n in
  let k := n - days_before_year y in
  let m := month_of_doy y k in
  (y, m, k - days_before_month y m).

Definition month_of_ord (n : Z) : Z := snd (fst (ymd_of_ord n)).
Definition day_of_ord (n : Z) : Z := snd (ymd_of_ord n).

(* calendar.monthrange(y, m)[1] *)
Definition monthrange_days (y m : Z) : Z := days_in_month y m.

(* the range of datetime.date *)
Definition MINYEAR : Z := 1.
Definition MAXYEAR : Z := 9999.
Definition max_ordinal : Z := 3652059.

(* datetime.date(y, m, d) is accepted (no ValueError) *)
Definition date_ok (y m d : Z) : bool := valid_ymdb y m d && (y <=? MAXYEAR).
(* datetime.date.fromordinal(n) is accepted *)
Definition ord_ok (n : Z) : bool := (1 <=? n) && (n <=? max_ordinal).

(* lexicographic order on (y, m, d) *)
Definition ymd_lt (a b : Z * Z * Z) : Prop :=
  let '(y1, m1, d1) := a in let '(y2, m2, d2) := b in
  y1 < y2 \/ (y1 = y2 /\ (m1 < m2 \/ (m1 = m2 /\ d1 < d2))).

Lemma is_leap_spec : forall y,
  is_leap y = true <-> ((y mod 4 = 0 /\ y mod 100 <> 0) \/ y mod 400 = 0).
Proof.
  intros y. unfold is_leap.
  rewrite orb_true_iff, andb_true_iff, negb_true_iff, !Z.eqb_eq, Z.eqb_neq. reflexivity.
Qed.

Lemma year_len_pos : forall y, 365 <= year_len y <= 366.
Proof. intros y. unfold year_len. destruct (is_leap y); lia. Qed.

Lemma dby_succ : forall y, days_before_year (y + 1) = days_before_year y + year_len y.
Proof.
  intros y. unfold days_before_year, year_len.
  replace (y + 1 - 1) with y by lia.
  destruct (is_leap y) eqn:L;
    [apply is_leap_spec in L | apply not_true_iff_false in L; rewrite is_leap_spec in L]; Z.div_mod_to_equations; lia.
Qed.

Lemma dby_pred : forall y, days_before_year y = days_before_year (y - 1) + year_len (y - 1).
Proof. intros y. rewrite <- dby_succ. f_equal. lia. Qed.

Lemma dby_mono : forall a b, a <= b -> days_before_year a <= days_before_year b.
Proof. intros a b H. unfold days_before_year. Z.div_mod_to_equations. lia. Qed.

Lemma dby_strict : forall a b, a < b -> days_before_year a < days_before_year b.
Proof.
  intros a b H. pose proof (dby_mono (a + 1) b). rewrite dby_succ in *.
  pose proof (year_len_pos a). lia.
Qed.

(* dby_mono read backwards: this is how the year of an ordinal is pinned down below *)
Lemma dby_lt_inv : forall a b, days_before_year a < days_before_year b -> a < b.
Proof. intros a b H. pose proof (dby_mono b a). lia. Qed.

Lemma dby_1 : days_before_year 1 = 0.
Proof. reflexivity. Qed.

Theorem year_of_ord_spec : forall n,
  days_before_year (year_of_ord n) < n <= days_before_year (year_of_ord n + 1).
Proof.
  intros n. unfold year_of_ord.
  set (y := 400 * (n - 1) / 146097 + 1).
  assert (Hlo : days_before_year (y - 1) < n) by (unfold days_before_year; subst y; Z.div_mod_to_equations; lia).
  assert (Hhi : n <= days_before_year (y + 2)) by (unfold days_before_year; subst y; Z.div_mod_to_equations; lia).
  destruct (Z.leb_spec n (days_before_year y)).
  - replace (y - 1 + 1) with y by lia. lia.
  - destruct (Z.ltb_spec (days_before_year (y + 1)) n).
    + replace (y + 1 + 1) with (y + 2) by lia. lia.
    + lia.
Qed.

Theorem year_of_ord_unique : forall n y,
  days_before_year y < n <= days_before_year (y + 1) -> year_of_ord n = y.
Proof.
  intros n y H. pose proof (year_of_ord_spec n) as S.
  pose proof (dby_lt_inv y (year_of_ord n + 1)). pose proof (dby_lt_inv (year_of_ord n) (y + 1)). lia.
Qed.

Lemma year_of_ord_mono : forall a b, a <= b -> year_of_ord a <= year_of_ord b.
Proof.
  intros a b H. pose proof (year_of_ord_spec a). pose proof (year_of_ord_spec b).
  pose proof (dby_lt_inv (year_of_ord a) (year_of_ord b + 1)). lia.
Qed.

Lemma year_of_ord_pos : forall n, 1 <= n -> 1 <= year_of_ord n.
Proof.
  intros n H. pose proof (year_of_ord_spec n).
  pose proof (dby_lt_inv 1 (year_of_ord n + 1)). rewrite dby_1 in *. lia.
Qed.

Lemma doy_range : forall n, 1 <= doy_of_ord n <= year_len (year_of_ord n).
Proof.
  intros n. unfold doy_of_ord. pose proof (year_of_ord_spec n) as S. rewrite dby_succ in S. lia.
Qed.

Lemma dim_range : forall y m, 28 <= days_in_month y m <= 31.
Proof.
  intros y m. unfold days_in_month.
  destruct (m =? 2); [destruct (is_leap y); lia |].
  destruct ((m =? 4) || (m =? 6) || (m =? 9) || (m =? 11)); lia.
Qed.

(* no [cbn] while y is a variable: it would unfold the addition of the leap day *)
Lemma dbm_succ : forall y m, 1 <= m < 12 ->
  days_before_month y (m + 1) = days_before_month y m + days_in_month y m.
Proof.
  intros y m H.
  assert (C : m = 1 \/ m = 2 \/ m = 3 \/ m = 4 \/ m = 5 \/ m = 6 \/ m = 7 \/ m = 8 \/ m = 9 \/ m = 10
              \/ m = 11) by lia.
  repeat destruct C as [C | C]; subst m;
    unfold days_before_month, days_in_month, leap_add; destruct (is_leap y); reflexivity.
Qed.

Lemma dbm_dec : forall y, days_before_month y 12 + days_in_month y 12 = year_len y.
Proof. intros y. unfold days_before_month, days_in_month, leap_add, year_len. destruct (is_leap y); reflexivity. Qed.

Lemma dbm_1 : forall y, days_before_month y 1 = 0.
Proof. reflexivity. Qed.

Lemma dbm_mono : forall y a b, 1 <= a -> a <= b -> b <= 12 ->
  days_before_month y a <= days_before_month y b.
Proof.
  intros y a b Ha Hab. pattern b. apply Z.le_ind with (n := a); try assumption.
  - intros ? ? ->. reflexivity.
  - lia.
  - intros m Hm IH Hb. rewrite <- Z.add_1_r, dbm_succ by lia. pose proof (dim_range y m). lia.
Qed.

Lemma dbm_strict : forall y a b, 1 <= a -> a < b -> b <= 12 ->
  days_before_month y a + days_in_month y a <= days_before_month y b.
Proof.
  intros y a b Ha Hab Hb. rewrite <- dbm_succ by lia. apply dbm_mono; lia.
Qed.

Lemma month_in_year : forall y m, 1 <= m <= 12 ->
  0 <= days_before_month y m /\ days_before_month y m + days_in_month y m <= year_len y.
Proof.
  intros y m H. split.
  - rewrite <- (dbm_1 y). apply dbm_mono; lia.
  - rewrite <- dbm_dec. destruct (Z.eq_dec m 12) as [-> | N]; [lia |].
    pose proof (dbm_strict y m 12). pose proof (dim_range y 12). lia.
Qed.

(* month_of_doy searches the thresholds days_before_month y 2 .. 12 in turn *)
Lemma month_of_doy_spec : forall y k, 1 <= k <= year_len y ->
  let m := month_of_doy y k in
  1 <= m <= 12 /\ days_before_month y m < k <= days_before_month y m + days_in_month y m.
Proof.
  intros y k H. cbv zeta. unfold month_of_doy, year_len in *.
  repeat (match goal with |- context [?a <=? ?b] => destruct (Z.leb_spec a b) end; cbv iota);
    unfold days_before_month, days_in_month, leap_add in *; destruct (is_leap y); cbn; lia.
Qed.

Lemma month_of_doy_unique : forall y k m, 1 <= m <= 12 ->
  days_before_month y m < k <= days_before_month y m + days_in_month y m ->
  month_of_doy y k = m.
Proof.
  intros y k m Hm H. pose proof (month_in_year y m Hm).
  assert (Hk : 1 <= k <= year_len y) by lia.
  pose proof (month_of_doy_spec y k Hk) as S. cbv zeta in S.
  set (m' := month_of_doy y k) in *.
  destruct (Z.lt_trichotomy m' m) as [L | [E | G]]; [exfalso | exact E | exfalso].
  - pose proof (dbm_strict y m' m). lia.
  - pose proof (dbm_strict y m m'). lia.
Qed.

(* a date lies in its year, whatever the year *)
Lemma ord_of_ymd_in_year : forall y m d, 1 <= m <= 12 -> 1 <= d <= days_in_month y m ->
  days_before_year y < ord_of_ymd y m d <= days_before_year (y + 1).
Proof.
  intros y m d Hm Hd. unfold ord_of_ymd. rewrite dby_succ.
  pose proof (month_in_year y m Hm). lia.
Qed.

Theorem ord_of_ymd_range : forall y m d, valid_ymd y m d ->
  days_before_year y < ord_of_ymd y m d <= days_before_year (y + 1).
Proof. intros y m d (_ & Hm & Hd). apply ord_of_ymd_in_year; assumption. Qed.

(* fromordinal (toordinal) = id *)
Theorem ymd_of_ord_of_ymd : forall y m d, valid_ymd y m d ->
  ymd_of_ord (ord_of_ymd y m d) = (y, m, d).
Proof.
  intros y m d V. pose proof (ord_of_ymd_range y m d V) as R.
  destruct V as (Hy & Hm & Hd).
  unfold ymd_of_ord. rewrite (year_of_ord_unique _ y R).
  unfold ord_of_ymd.
  replace (days_before_year y + days_before_month y m + d - days_before_year y)
    with (days_before_month y m + d) by lia.
  rewrite (month_of_doy_unique y _ m) by lia.
  f_equal. lia.
Qed.

(* toordinal (fromordinal) = id, and fromordinal returns a valid date *)
Theorem ord_of_ymd_of_ord : forall n,
  let '(y, m, d) := ymd_of_ord n in
  ord_of_ymd y m d = n /\ 1 <= m <= 12 /\ 1 <= d <= days_in_month y m /\ y = year_of_ord n.
Proof.
  intros n. unfold ymd_of_ord.
  pose proof (doy_range n) as R. unfold doy_of_ord in R.
  pose proof (month_of_doy_spec _ _ R) as S. cbv zeta in S.
  unfold ord_of_ymd. repeat split; lia.
Qed.

Theorem ymd_of_ord_valid : forall n, 1 <= n ->
  let '(y, m, d) := ymd_of_ord n in valid_ymd y m d.
Proof.
  intros n H. pose proof (ord_of_ymd_of_ord n) as S.
  destruct (ymd_of_ord n) as [[y m] d]. destruct S as (_ & Hm & Hd & Hy).
  subst y. unfold valid_ymd. pose proof (year_of_ord_pos n H). lia.
Qed.

(* the ordinal is strictly monotone in the lexicographic order of valid dates *)
Theorem ord_of_ymd_lt : forall y1 m1 d1 y2 m2 d2,
  valid_ymd y1 m1 d1 -> valid_ymd y2 m2 d2 ->
  ymd_lt (y1, m1, d1) (y2, m2, d2) -> ord_of_ymd y1 m1 d1 < ord_of_ymd y2 m2 d2.
Proof.
  intros y1 m1 d1 y2 m2 d2 V1 V2 L.
  pose proof (ord_of_ymd_range _ _ _ V1). pose proof (ord_of_ymd_range _ _ _ V2).
  destruct V1 as (? & ? & ?), V2 as (? & ? & ?).
  cbn in L. destruct L as [L | (E & [L | (E2 & L)])].
  - assert (days_before_year (y1 + 1) <= days_before_year y2) by (apply dby_mono; lia). lia.
  - subst y2. unfold ord_of_ymd. pose proof (dbm_strict y1 m1 m2). lia.
  - subst y2 m2. unfold ord_of_ymd. lia.
Qed.

(* the lexicographic order is total, so the converse follows from ord_of_ymd_lt *)
Theorem ord_of_ymd_le_inv : forall y1 m1 d1 y2 m2 d2,
  valid_ymd y1 m1 d1 -> valid_ymd y2 m2 d2 ->
  ord_of_ymd y1 m1 d1 <= ord_of_ymd y2 m2 d2 ->
  (y1, m1, d1) = (y2, m2, d2) \/ ymd_lt (y1, m1, d1) (y2, m2, d2).
Proof.
  intros y1 m1 d1 y2 m2 d2 V1 V2 L.
  assert (T : (y1 = y2 /\ m1 = m2 /\ d1 = d2) \/ ymd_lt (y1, m1, d1) (y2, m2, d2)
              \/ ymd_lt (y2, m2, d2) (y1, m1, d1)) by (cbn; lia).
  destruct T as [(-> & -> & ->) | [T | T]]; [left; reflexivity | right; exact T | exfalso].
  apply (ord_of_ymd_lt _ _ _ _ _ _ V2 V1) in T. lia.
Qed.

Theorem ord_of_ymd_inj : forall y1 m1 d1 y2 m2 d2,
  valid_ymd y1 m1 d1 -> valid_ymd y2 m2 d2 ->
  ord_of_ymd y1 m1 d1 = ord_of_ymd y2 m2 d2 -> (y1, m1, d1) = (y2, m2, d2).
Proof.
  intros. rewrite <- (ymd_of_ord_of_ymd y1 m1 d1), <- (ymd_of_ord_of_ymd y2 m2 d2) by assumption. congruence.
Qed.

(* month and year boundaries: consecutive days *)
Theorem month_boundary : forall y m, 1 <= m < 12 ->
  ord_of_ymd y m (days_in_month y m) + 1 = ord_of_ymd y (m + 1) 1.
Proof. intros y m H. unfold ord_of_ymd. rewrite dbm_succ by lia. lia. Qed.

Theorem year_boundary : forall y, ord_of_ymd y 12 31 + 1 = ord_of_ymd (y + 1) 1 1.
Proof.
  intros y. unfold ord_of_ymd. rewrite dby_succ, dbm_1, <- dbm_dec.
  change (days_in_month y 12) with 31. lia.
Qed.

Theorem ord_jan1 : forall y, ord_of_ymd y 1 1 = days_before_year y + 1.
Proof. intros y. unfold ord_of_ymd. rewrite dbm_1. lia. Qed.

Theorem year_of_ord_of_ymd : forall y m d, valid_ymd y m d -> year_of_ord (ord_of_ymd y m d) = y.
Proof. intros. apply year_of_ord_unique. apply ord_of_ymd_range. assumption. Qed.

Theorem ordinal_range : ord_of_ymd 1 1 1 = 1 /\ ord_of_ymd 9999 12 31 = max_ordinal.
Proof. split; reflexivity. Qed.

Theorem year_in_range : forall n, 1 <= n <= max_ordinal -> MINYEAR <= year_of_ord n <= MAXYEAR.
Proof.
  intros n H. split. { apply year_of_ord_pos. lia. }
  pose proof (year_of_ord_spec n). pose proof (dby_lt_inv (year_of_ord n) 10000).
  change (days_before_year 10000) with max_ordinal in *. unfold MAXYEAR. lia.
Qed.

Lemma valid_jan1 : forall y, 1 <= y -> valid_ymd y 1 1.
Proof. intros y H. unfold valid_ymd. change (days_in_month y 1) with 31. lia. Qed.

Lemma valid_dec31 : forall y, 1 <= y -> valid_ymd y 12 31.
Proof. intros y H. unfold valid_ymd. change (days_in_month y 12) with 31. lia. Qed.

Lemma valid_ymdb_spec : forall y m d, valid_ymdb y m d = true <-> valid_ymd y m d.
Proof.
  intros. unfold valid_ymdb, valid_ymd. rewrite !andb_true_iff, !Z.leb_le. tauto.
Qed.

(* the day of the year: fromordinal(n) is the doy_of_ord n -th day of its year *)
Theorem doy_of_ord_ymd : forall y m d, valid_ymd y m d ->
  doy_of_ord (ord_of_ymd y m d) = days_before_month y m + d.
Proof.
  intros. unfold doy_of_ord. rewrite year_of_ord_of_ymd by assumption. unfold ord_of_ymd. lia.
Qed.
