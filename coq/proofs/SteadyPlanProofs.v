(* C05, steady plans: the register machine of plans/steady_plans.py (model/SteadyPlan.v) over EVERY history of public
   calls; what the plan hands to the solver loop; fixed quantities keep their assigned level and change through the
   whole of _steady_nonlinear. *)
From Coq Require Import List Bool Arith Lia Reals ZArith.
From Verif Require Import gen.SteadyPlanGen model.Steady model.SteadyPlan proofs.SteadyProofs.
Import ListNotations.
Local Open Scope nat_scope.

Definition rname_eqb (a b : rname) : bool :=
  match a, b with RExog, RExog | REndog, REndog | RFixL, RFixL | RFixC, RFixC => true | _, _ => false end.

Lemma rname_eqb_refl r : rname_eqb r r = true.
Proof. destruct r; reflexivity. Qed.

Lemma get_set_reg p r g r' : get_reg (set_reg p r g) r' = if rname_eqb r' r then g else get_reg p r'.
Proof. destruct r, r'; reflexivity. Qed.

Lemma keys_set_status g n v : keys (set_status g n v) = keys g.
Proof.
  unfold keys, set_status. rewrite map_map. apply map_ext. intros [k b]; simpl. destruct (k =? n); reflexivity.
Qed.

Lemma is_on_not_key g m : mem_nat m (keys g) = false -> is_on g m = false.
Proof.
  induction g as [|[k b] g IH]; simpl; auto.
  intros H. apply orb_false_iff in H. destruct H as [H1 H2].
  rewrite (IH H2). rewrite Nat.eqb_sym, H1. reflexivity.
Qed.

Lemma is_on_set_status g n v m :
  is_on (set_status g n v) m = if Nat.eqb m n then mem_nat n (keys g) && v else is_on g m.
Proof.
  unfold is_on, set_status, mem_nat, keys. induction g as [|[k b] g IH]; simpl.
  - destruct (m =? n); reflexivity.
  - rewrite IH. destruct (Nat.eqb_spec k n) as [->|Hkn]; simpl.
    + rewrite (Nat.eqb_sym n m). destruct (m =? n); [|reflexivity].
      rewrite Nat.eqb_refl. destruct v, (existsb (Nat.eqb n) (map fst g)); reflexivity.
    + destruct (Nat.eqb_spec m n) as [Emn|Hmn]; [subst m|reflexivity].
      rewrite (proj2 (Nat.eqb_neq k n)), (proj2 (Nat.eqb_neq n k)) by auto. reflexivity.
Qed.

Definition write_names (g : register) (ns : list nat) (v : bool) : register :=
  fold_left (fun g n => set_status g n v) ns g.

Lemma keys_write_names g ns v : keys (write_names g ns v) = keys g.
Proof.
  unfold write_names. revert g; induction ns as [|n ns IH]; intros g; simpl; auto. rewrite IH. apply keys_set_status.
Qed.

Lemma is_on_write_names g ns v m :
  is_on (write_names g ns v) m = if mem_nat m ns && mem_nat m (keys g) then v else is_on g m.
Proof.
  unfold write_names. revert g; induction ns as [|n ns IH]; intros g; [reflexivity|].
  cbn [fold_left]. rewrite IH, keys_set_status, is_on_set_status. cbn [mem_nat existsb]. fold (mem_nat m ns).
  destruct (Nat.eqb_spec m n) as [Emn|Hmn]; [subst m|]; cbn [orb].
  - destruct (mem_nat n (keys g)) eqn:K.
    + rewrite andb_true_r. cbn [andb]. destruct (mem_nat n ns); reflexivity.
    + rewrite andb_false_r. cbn [andb]. symmetry. apply is_on_not_key; assumption.
  - reflexivity.
Qed.

Definition sel_covers (g : register) (s : sel) (m : nat) : bool :=
  match s with SAll => mem_nat m (keys g) | SNames l => mem_nat m l end.
Definition sel_mentions (s : sel) (m : nat) : bool :=
  match s with SAll => true | SNames l => mem_nat m l end.

Lemma resolve_names_spec g s ns : resolve_names g s = Some ns ->
  forall m, mem_nat m ns && mem_nat m (keys g) = sel_covers g s m.
Proof.
  destruct s as [|l]; simpl.
  - intros E; inversion E; subst. intros m. apply andb_diag.
  - destruct (forallb _ l) eqn:F; [|discriminate]. intros E; inversion E; subst. intros m.
    destruct (mem_nat m ns) eqn:M; [|reflexivity]. simpl.
    apply mem_nat_In in M. rewrite forallb_forall in F. apply F; assumption.
Qed.

Lemma write_reg_keys p r s v r' : keys (get_reg (fst (write_reg p r s v)) r') = keys (get_reg p r').
Proof.
  unfold write_reg. destruct (resolve_names (get_reg p r) s) as [ns|]; cbn [fst]; [|reflexivity].
  rewrite get_set_reg. destruct (rname_eqb r' r) eqn:E; [|reflexivity].
  fold (write_names (get_reg p r) ns v). rewrite keys_write_names.
  destruct r, r'; try discriminate; reflexivity.
Qed.

Lemma write_reg_on p r s v r' m :
  is_on (get_reg (fst (write_reg p r s v)) r') m =
  if snd (write_reg p r s v) && rname_eqb r' r && sel_covers (get_reg p r) s m then v else is_on (get_reg p r') m.
Proof.
  unfold write_reg. destruct (resolve_names (get_reg p r) s) as [ns|] eqn:R; cbn [fst snd andb]; [|reflexivity].
  rewrite get_set_reg. destruct (rname_eqb r' r) eqn:E; cbn [andb]; [|reflexivity].
  fold (write_names (get_reg p r) ns v). rewrite is_on_write_names, (resolve_names_spec _ _ _ R).
  replace (get_reg p r') with (get_reg p r) by (destruct r, r'; try discriminate; reflexivity). reflexivity.
Qed.

Lemma write_reg_fail p r s v : snd (write_reg p r s v) = false -> fst (write_reg p r s v) = p.
Proof. unfold write_reg. destruct (resolve_names _ _); simpl; [discriminate|reflexivity]. Qed.

(* a call succeeds iff every named quantity is a key of the register (Ellipsis always succeeds) *)
Lemma write_reg_ok p r s v :
  snd (write_reg p r s v) = match s with SAll => true | SNames l => forallb (fun n => mem_nat n (keys (get_reg p r))) l end.
Proof. unfold write_reg. destruct s as [|l]; simpl; [reflexivity|]. destruct (forallb _ l); reflexivity. Qed.

Lemma covers_mentions g s m : sel_mentions s m = false -> sel_covers g s m = false.
Proof. destruct s; simpl; [discriminate|auto]. Qed.

Lemma write_reg_frame p r s v r' m : rname_eqb r' r && sel_mentions s m = false ->
  is_on (get_reg (fst (write_reg p r s v)) r') m = is_on (get_reg p r') m.
Proof.
  intros H. rewrite write_reg_on. destruct (rname_eqb r' r); cbn [andb] in *.
  - rewrite (covers_mentions _ _ _ H), andb_false_r. reflexivity.
  - rewrite andb_false_r. reflexivity.
Qed.

Definition same_keys (p q : splan) : Prop := forall r, keys (get_reg p r) = keys (get_reg q r).

(* fix / unfix make at most two elementary writes, both with the caller's selector and to the two fixed registers; swap /
   unswap write single names taken from the pairs, first components to one register, second ones to the other.  So an
   observation f of the plan that none of these writes changes is not changed by the call. *)
Lemma fix_like_preserves {A} (f : splan -> A) s v guard :
  (forall p r, r = RFixL \/ r = RFixC -> f (fst (write_reg p r s v)) = f p) ->
  forall p, f (fst (fix_like p s v guard)) = f p.
Proof.
  intros W p. unfold fix_like. pose proof (W p RFixL (or_introl eq_refl)) as H1.
  destruct (write_reg p RFixL s v) as [p1 ok1]. cbn [fst] in H1.
  destruct ok1; cbn [negb]; [|exact H1].
  destruct (guard _ _); [|exact H1]. rewrite W by (right; reflexivity). exact H1.
Qed.

Lemma swap_like_preserves {A} (f : splan -> A) v ps :
  (forall p a, In a (map fst ps) -> f (fst (write_reg p gen_swap_first (SNames [a]) v)) = f p) ->
  (forall p b, In b (map snd ps) -> f (fst (write_reg p gen_swap_second (SNames [b]) v)) = f p) ->
  forall p, f (fst (swap_like p v ps)) = f p.
Proof.
  induction ps as [|[a b] ps IH]; intros W1 W2 p; [reflexivity|]. cbn [swap_like].
  pose proof (W1 p a (or_introl eq_refl)) as H1.
  destruct (write_reg p gen_swap_first (SNames [a]) v) as [p1 ok1]. cbn [fst] in H1.
  destruct ok1; cbn [negb]; [|exact H1].
  pose proof (W2 p1 b (or_introl eq_refl)) as H2.
  destruct (write_reg p1 gen_swap_second (SNames [b]) v) as [p2 ok2]. cbn [fst] in H2.
  destruct ok2; cbn [negb fst]; [|congruence].
  rewrite IH; [congruence | intros q a' Ha; apply W1; right; exact Ha | intros q b' Hb; apply W2; right; exact Hb].
Qed.

Lemma step_keys p o : same_keys (fst (step p o)) p.
Proof.
  destruct o; cbn [step]; intros r.
  - apply write_reg_keys.
  - apply (fix_like_preserves (fun q => keys (get_reg q r))). intros. apply write_reg_keys.
  - apply (fix_like_preserves (fun q => keys (get_reg q r))). intros. apply write_reg_keys.
  - apply (swap_like_preserves (fun q => keys (get_reg q r))); intros; apply write_reg_keys.
  - apply (swap_like_preserves (fun q => keys (get_reg q r))); intros; apply write_reg_keys.
Qed.

Lemma run_keys p h : same_keys (run p h) p.
Proof.
  unfold run. revert p; induction h as [|o h IH]; intros p r; [reflexivity|]. cbn [fold_left].
  rewrite IH. apply step_keys.
Qed.

Lemma keys_init_register ns : keys (init_register ns) = ns.
Proof. unfold keys, init_register. rewrite map_map. simpl. apply map_id. Qed.

(* the registers reachable from SteadyPlan(model): level register = the endogenous variables; change register = the
   same names in growth mode, EMPTY in flat mode *)
Lemma reachable_keys endog params flat h :
  let p := run (init_plan endog params flat) h in
  keys (sp_exog p) = endog /\ keys (sp_endog p) = params /\ keys (sp_fixl p) = endog /\
  keys (sp_fixc p) = if flat then [] else endog.
Proof.
  intros p. pose proof (run_keys (init_plan endog params flat) h) as K. fold p in K.
  pose proof (K RExog) as K1. pose proof (K REndog) as K2. pose proof (K RFixL) as K3. pose proof (K RFixC) as K4.
  cbn [get_reg init_plan sp_exog sp_endog sp_fixl sp_fixc] in *.
  rewrite keys_init_register in *. repeat split; auto.
  rewrite K4. unfold gen_can_be_fixed_change. destruct flat; reflexivity.
Qed.

Lemma nonempty_keys g m : mem_nat m (keys g) = true -> nonempty g = true.
Proof. destruct g; simpl; [discriminate|reflexivity]. Qed.

Lemma covers_in_keys p r s v m : snd (write_reg p r s v) = true -> sel_covers (get_reg p r) s m = true ->
  mem_nat m (keys (get_reg p r)) = true.
Proof.
  rewrite write_reg_ok. destruct s as [|l]; simpl; auto.
  intros F M. rewrite forallb_forall in F. apply F. apply mem_nat_In; exact M.
Qed.

(* fix / unfix after ANY history h of public calls on a fresh plan: the level call switches every named quantity to v;
   the change register has the same keys in growth mode, so it is non-empty and the change call does the same there;
   in flat mode it has no keys, the change call is not made and nothing is on *)
Lemma fix_like_reachable endog params flat h s v guard n :
  (forall ne any, guard ne any = ne) ->
  let p := run (init_plan endog params flat) h in
  let r := fix_like p s v guard in
  snd r = true -> sel_covers (sp_fixl p) s n = true ->
  is_on (sp_fixl (fst r)) n = v /\ is_on (sp_fixc (fst r)) n = if flat then false else v.
Proof.
  intros G p r. subst r. unfold fix_like.
  destruct (reachable_keys endog params flat h) as (_ & _ & KL & KC). fold p in KL, KC.
  pose proof (write_reg_on p RFixL s v) as ON1. pose proof (write_reg_keys p RFixL s v RFixC) as KC1.
  pose proof (covers_in_keys p RFixL s v n) as CK.
  destruct (write_reg p RFixL s v) as [p1 ok1] eqn:E1. cbn [fst snd get_reg] in *.
  destruct ok1; cbn [negb]; [|intros; discriminate]. rewrite G.
  intros OK Hc. specialize (CK eq_refl Hc). rewrite KC in KC1.
  assert (L1 : is_on (sp_fixl p1) n = v).
  { specialize (ON1 RFixL n). cbn [get_reg rname_eqb andb] in ON1. rewrite ON1, Hc. reflexivity. }
  destruct flat.
  - apply map_eq_nil in KC1. rewrite KC1. cbn [nonempty fst]. rewrite KC1. split; [exact L1|reflexivity].
  - rewrite (nonempty_keys _ n) in * by (rewrite KC1, <- KL; exact CK).
    pose proof (write_reg_on p1 RFixC s v) as ON2.
    destruct (write_reg p1 RFixC s v) as [p2 ok2] eqn:E2. cbn [fst snd] in *. subst ok2.
    split.
    + specialize (ON2 RFixL n). cbn [get_reg rname_eqb andb] in ON2. rewrite ON2. exact L1.
    + specialize (ON2 RFixC n). cbn [get_reg rname_eqb andb] in ON2. rewrite ON2.
      replace (sel_covers (sp_fixc p1) s n) with true; [reflexivity|].
      symmetry. destruct s as [|l]; cbn [sel_covers] in *; [|exact Hc]. rewrite KC1, <- KL. exact CK.
Qed.

(* SteadyPlan.fix over every history: after ANY history h of public calls on a fresh plan, a successful fix(names) leaves every named quantity with its
   LEVEL fixed and - in growth mode - its CHANGE fixed as well. *)
Theorem fix_fixes_level_and_change endog params flat h s n :
  let p := run (init_plan endog params flat) h in
  let r := step p (OFix s) in
  snd r = true -> sel_covers (sp_fixl p) s n = true ->
  is_on (sp_fixl (fst r)) n = true /\ (flat = false -> is_on (sp_fixc (fst r)) n = true).
Proof.
  intros p r OK Hc. destruct (fix_like_reachable endog params flat h s true gen_fix_guard n) as [A B]; auto.
  split; [exact A|]. destruct flat; [discriminate|intros _; exact B].
Qed.

Definition touches (o : op) (r : rname) (n : nat) : bool :=
  match o with
  | OCall m s => rname_eqb r (gen_method_register m) && sel_mentions s n
  | OFix s | OUnfix s => (rname_eqb r RFixL || rname_eqb r RFixC) && sel_mentions s n
  | OSwap ps | OUnswap ps =>
      (rname_eqb r gen_swap_first && mem_nat n (map fst ps)) || (rname_eqb r gen_swap_second && mem_nat n (map snd ps))
  end.

Lemma fix_like_frame p s v guard r n : (rname_eqb r RFixL || rname_eqb r RFixC) && sel_mentions s n = false ->
  is_on (get_reg (fst (fix_like p s v guard)) r) n = is_on (get_reg p r) n.
Proof.
  intros H. apply (fix_like_preserves (fun q => is_on (get_reg q r) n)). intros q r' Hr. apply write_reg_frame.
  destruct (sel_mentions s n); [|apply andb_false_r]. rewrite andb_true_r in *.
  apply orb_false_iff in H. destruct Hr as [-> | ->]; apply H.
Qed.

Lemma single_not_mentioned (b : bool) n a l : b && mem_nat n l = false -> In a l -> b && sel_mentions (SNames [a]) n = false.
Proof.
  destruct b; [|reflexivity]. cbn [andb sel_mentions]. intros H Ha.
  apply not_true_iff_false. rewrite mem_nat_In. intros [->|[]]. apply mem_nat_In in Ha. congruence.
Qed.

Lemma swap_like_frame p v ps r n :
  (rname_eqb r gen_swap_first && mem_nat n (map fst ps)) || (rname_eqb r gen_swap_second && mem_nat n (map snd ps)) = false ->
  is_on (get_reg (fst (swap_like p v ps)) r) n = is_on (get_reg p r) n.
Proof.
  intros H. apply orb_false_iff in H. destruct H as [H1 H2].
  apply (swap_like_preserves (fun q => is_on (get_reg q r) n)); intros q a Ha; apply write_reg_frame.
  - exact (single_not_mentioned _ _ _ _ H1 Ha).
  - exact (single_not_mentioned _ _ _ _ H2 Ha).
Qed.

(* a call that does not name a quantity in a register leaves its status there as it is (so a status lasts until a
   later call names it again) *)
Theorem step_frame p o r n : touches o r n = false ->
  is_on (get_reg (fst (step p o)) r) n = is_on (get_reg p r) n.
Proof.
  destruct o; cbn [step touches]; intros H.
  - apply write_reg_frame; exact H.
  - apply fix_like_frame; exact H.
  - apply fix_like_frame; exact H.
  - apply swap_like_frame; exact H.
  - apply swap_like_frame; exact H.
Qed.

Theorem status_lasts p h r n : forallb (fun o => negb (touches o r n)) h = true ->
  is_on (get_reg (run p h) r) n = is_on (get_reg p r) n.
Proof.
  unfold run. revert p; induction h as [|o h IH]; intros p H; [reflexivity|]. cbn [fold_left forallb] in *.
  apply andb_prop in H. destruct H as [H1 H2]. rewrite IH by exact H2. apply step_frame.
  apply negb_true_iff; exact H1.
Qed.

Lemma run_app p h1 h2 : run p (h1 ++ h2) = run (run p h1) h2.
Proof. unfold run. apply fold_left_app. Qed.

(* fixed by fix(names) after any history, and still fixed after any later calls that do not name it *)
Theorem fixed_until_named_again endog params flat h1 s h2 n :
  let p := run (init_plan endog params flat) h1 in
  snd (step p (OFix s)) = true -> sel_covers (sp_fixl p) s n = true ->
  forallb (fun o => negb (touches o RFixL n)) h2 = true -> forallb (fun o => negb (touches o RFixC n)) h2 = true ->
  let pf := run (init_plan endog params flat) (h1 ++ OFix s :: h2) in
  is_on (sp_fixl pf) n = true /\ (flat = false -> is_on (sp_fixc pf) n = true).
Proof.
  intros p OK Hc T1 T2 pf.
  destruct (fix_fixes_level_and_change endog params flat h1 s n OK Hc) as [A B]. fold p in A, B.
  assert (E : pf = run (fst (step p (OFix s))) h2).
  { unfold pf. rewrite run_app. reflexivity. }
  rewrite E. split.
  - rewrite <- A. apply (status_lasts _ h2 RFixL n T1).
  - intros F. rewrite <- (B F). apply (status_lasts _ h2 RFixC n T2).
Qed.

Lemma names_on_is_on g n : In n (names_on g) <-> is_on g n = true.
Proof.
  unfold names_on, is_on. rewrite in_map_iff. split.
  - intros ((k, b) & E & H). simpl in E; subst k. apply filter_In in H. destruct H as [H Hb]. simpl in Hb; subst b.
    apply existsb_exists. exists (n, true). split; auto. simpl. rewrite Nat.eqb_refl. reflexivity.
  - intros H. apply existsb_exists in H. destruct H as ((k, b) & H & E). simpl in E. apply andb_prop in E.
    destruct E as [E1 E2]. apply Nat.eqb_eq in E1; subst. exists (n, true). split; auto. apply filter_In. split; auto.
Qed.

Lemma is_on_any g n : is_on g n = true -> any_in g = true.
Proof.
  unfold is_on, any_in. intros H. apply existsb_exists in H. destruct H as (x & Hx & E).
  apply andb_prop in E. apply existsb_exists. exists x. tauto.
Qed.

Lemma sorted_minus_In n l excl q : In q (sorted_minus n l excl) <-> (q < n)%nat /\ In q l /\ ~ In q excl.
Proof.
  unfold sorted_minus. rewrite filter_In, in_seq, andb_true_iff, negb_true_iff, mem_nat_In.
  rewrite <- not_true_iff_false, mem_nat_In. split; intros H; repeat split; try tauto; lia.
Qed.

(* a quantity switched on in the fixed-level (fixed-change) register is among the fixed qids the loop receives *)
Lemma fixed_qids_of_plan kinds (pf : splan) q : (q < length kinds)%nat ->
  (is_on (sp_fixl pf) q = true -> In q (snd (fst (resolve_wrt kinds (plan_view (Some pf)))))) /\
  (is_on (sp_fixc pf) q = true -> In q (snd (resolve_wrt kinds (plan_view (Some pf))))).
Proof.
  intros Hq. unfold resolve_wrt. cbn [fst snd].
  (* a plan with something switched on is not empty, so plan_view reads the registers *)
  assert (E : is_on (sp_fixl pf) q = true \/ is_on (sp_fixc pf) q = true -> plan_is_empty pf = false).
  { unfold plan_is_empty. intros [H|H]; apply is_on_any in H; rewrite H, ?orb_true_r; reflexivity. }
  split; intros H; cbn [plan_view]; rewrite E by auto; cbn [p_fixed_level p_fixed_change p_endogenized];
    apply filter_In; (split; [apply in_seq; lia|]); rewrite ?orb_true_iff, !mem_nat_In, !names_on_is_on; auto.
Qed.

Section KeepsFixed.
Variables (flat : bool) (lg : list (option bool)) (kinds : list qkind) (tol : R) (nq : nat).

Lemma run_mblocks_keeps bs v q : vinv flat lg nq v -> all_ok flat lg kinds tol nq bs v ->
  ((forall b, In b bs -> ~ In q (mb_lq b)) ->
     vget RA (v_levels RA (run_mblocks flat lg kinds bs v)) q = vget RA (v_levels RA v) q) /\
  (flat = false -> (forall b, In b bs -> ~ In q (mb_cq b)) ->
     vget RA (v_changes RA (run_mblocks flat lg kinds bs v)) q = vget RA (v_changes RA v) q).
Proof.
  revert v; induction bs as [|b r IH]; intros v Hv Hok; [split; reflexivity|].
  destruct Hok as [Hb Hr]. cbn [run_mblocks fold_left].
  destruct (mb_step_spec flat lg kinds tol nq b v Hv Hb) as (Hv' & HL & HC & _).
  destruct (IH _ Hv' Hr) as [IL IC]. unfold run_mblocks in IL, IC. split.
  - intros H. rewrite IL by (intros b' Hb'; apply H; right; exact Hb').
    apply HL. intros [_ Hq]. exact (H b (or_introl eq_refl) Hq).
  - intros F H. rewrite IC by (auto; intros b' Hb'; apply H; right; exact Hb').
    apply HC. intros (_ & _ & Hq). exact (H b (or_introl eq_refl) Hq).
Qed.
End KeepsFixed.

Lemma pair_blocks_lq kinds eqs fixl fixc bs orcs b :
  In b (pair_blocks kinds eqs fixl fixc bs orcs) ->
  exists b0, mb_lq b = blk_lq kinds fixl b0 /\ mb_cq b = blk_cq kinds fixc b0.
Proof.
  revert orcs; induction bs as [|b0 r IH]; intros orcs H; [destruct H|]. cbn [pair_blocks] in H.
  destruct (skipped kinds eqs fixl fixc b0); [eapply IH; eauto|].
  destruct orcs as [|[w g] orcs']; [eapply IH; eauto|].
  destruct H as [H|H]; [|eapply IH; eauto]. subst b. exists b0. split; reflexivity.
Qed.

(* through the WHOLE loop of _steady_nonlinear (all blocks, any oracle outputs that are well formed) a quantity among
   the fixed-level qids keeps its stored level, and - in growth mode - a quantity among the fixed-change qids keeps its
   stored change *)
Theorem steady_nonlinear_keeps_fixed flat lg kinds eqs p split blocks orcs v tol :
  let res := steady_nonlinear RA nobad flat lg kinds eqs p split blocks orcs v in
  let wrt := fst (fst (resolve_wrt kinds p)) in
  let fixl := snd (fst (resolve_wrt kinds p)) in
  let fixc := snd (resolve_wrt kinds p) in
  let blocks1 := if split then blocks else [mkBlock (seq 0 (length eqs)) wrt] in
  let mbs := pair_blocks kinds eqs fixl fixc blocks1 orcs in
  vinv flat lg (length kinds) v -> all_ok flat lg kinds tol (length kinds) mbs v ->
  forall q,
    (In q fixl -> vget RA (r_levels RA res) q = vget RA (v_levels RA v) q) /\
    (flat = false -> In q fixc -> vget RA (r_changes RA res) q = vget RA (v_changes RA v) q).
Proof.
  intros res wrt fixl fixc blocks1 mbs Hv Hok q.
  assert (E : mkVariant RA (r_levels RA res) (r_changes RA res) = run_mblocks flat lg kinds mbs v)
    by apply steady_nonlinear_run.
  assert (EL : r_levels RA res = v_levels RA (run_mblocks flat lg kinds mbs v)) by (rewrite <- E; reflexivity).
  assert (EC : r_changes RA res = v_changes RA (run_mblocks flat lg kinds mbs v)) by (rewrite <- E; reflexivity).
  destruct (run_mblocks_keeps flat lg kinds tol (length kinds) mbs v q Hv Hok) as [KL KC].
  rewrite EL, EC. split.
  - intros Hq. apply KL. intros b Hb. destruct (pair_blocks_lq _ _ _ _ _ _ _ Hb) as (b0 & A & _). rewrite A.
    unfold blk_lq. rewrite sorted_minus_In. tauto.
  - intros F Hq. apply KC; auto. intros b Hb. destruct (pair_blocks_lq _ _ _ _ _ _ _ Hb) as (b0 & _ & A). rewrite A.
    unfold blk_cq. rewrite sorted_minus_In. tauto.
Qed.

Example ex_plan_growth :
  let p0 := init_plan [0; 1]%nat [2]%nat false in
  let h := [OCall MExogenize (SNames [1%nat]); OFix (SNames [0%nat]); OCall MEndogenize (SNames [2%nat]);
            OCall MUnexogenize SAll] in
  map snd (run_trace p0 h) = [true; true; true; true] /\
  run p0 h = mkSP [(0, false); (1, false)]%nat [(2%nat, true)] [(0, true); (1, false)]%nat [(0, true); (1, false)]%nat /\
  resolve_wrt [KEndog; KEndog; KParam] (plan_view (Some (run p0 h))) = ([0; 1; 2], [0], [0; 2])%nat /\
  level_unknowns [KEndog; KEndog; KParam] (plan_view (Some (run p0 h))) [0; 1; 2]%nat = [1; 2]%nat /\
  change_unknowns [KEndog; KEndog; KParam] (plan_view (Some (run p0 h))) [0; 1; 2]%nat = [1]%nat.
Proof. repeat split; reflexivity. Qed.

Example ex_plan_flat_and_invalid :
  let p0 := init_plan [0; 1]%nat [2]%nat true in
  let h := [OFix (SNames [0%nat]); OCall MFixChange (SNames [0%nat]); OSwap [(1, 2); (2, 2)]%nat] in
  map snd (run_trace p0 h) = [true; false; false] /\
  run p0 h = mkSP [(0, false); (1, true)]%nat [(2%nat, true)] [(0, true); (1, false)]%nat [].
Proof. repeat split; reflexivity. Qed.
