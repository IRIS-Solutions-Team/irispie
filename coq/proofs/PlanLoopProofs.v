(* C07  (1) the boolean incidence arrays the simulators read from a SimulationPlan, for every history of calls:
        an entry is True exactly when the LAST elementary write covering the point had status=True (points switched
        off with status=False, and points never written, read False); tied to the source through the generated
        element formula gen/PlanLoopGen.v::gen_point_value and gen_is_active.
        (2) the loop over variants of Simultaneous.simulate is pointwise: variant k of the result is the one-variant
        simulation of variant k of the model on variant k of the input data, and so inherits "exogenized cells keep
        THEIR input values" from the one-variant simulator (props/C07.v); tied through gen_model_of / gen_input_of / gen_work_of
        (model/SimVariants.v). *)
From Coq Require Import List ZArith.
From Verif Require Import model.Plans lib.PlanRegs model.Variants gen.PlanLoopGen model.SimVariants.
Import ListNotations.

(* 1. get_register_as_bool_array *)

Definition st_is_none (s : status) : bool := match s with SNone => true | _ => false end.
Definition st_is_true (s : status) : bool := match s with STrue => true | _ => false end.
Definition st_is_false (s : status) : bool := match s with SFalse => true | _ => false end.

(* the model's element of the array is the formula in the source *)
Lemma point_bool_generated p row d :
  point_bool p row d
  = gen_point_value status_bool st_is_none st_is_true st_is_false (negb (in_span p d))
                    (nth (Z.to_nat (d - pl_start p)) row SNone).
Proof.
  unfold point_bool, gen_point_value.
  destruct (in_span p d); destruct (nth (Z.to_nat (d - pl_start p)) row SNone); reflexivity.
Qed.

(* the formula in the source reads True only for an entry that is True: never for None, never for False *)
Lemma generated_point_true_iff outside s :
  gen_point_value status_bool st_is_none st_is_true st_is_false outside s = true <-> outside = false /\ s = STrue.
Proof. destruct outside, s; simpl; split; intros H; try discriminate; try (destruct H; discriminate); auto. Qed.

Lemma in_span_shape p q d : same_shape p q -> in_span p d = in_span q d.
Proof. intros (A & B & _). unfold in_span. rewrite A, B. reflexivity. Qed.

(* on a fresh SimulationPlan, after ANY history of exogenize_* / endogenize_* / swap_* calls (any status flags, any
   invalid calls in between), the entry (i, j) of get_register_as_bool_array(register, names, periods) is True iff
   the period is inside the base span and the last elementary write covering (name, period) had status True *)
Theorem bool_array_last_write_wins start nper nvar nshock cs r names periods i j :
  i < length names -> j < length periods ->
  let p0 := new_plan start nper nvar nshock in
  let p := fst (apply_calls p0 cs) in
  let d := nth j periods 0%Z in
  nth j (nth i (bool_array p r names periods) []) false = true <->
  in_span p0 d = true /\
  after_writes r (nth i names 0) (Z.to_nat (d - start)) SNone (flat_map (ewrites_of_call p0) cs) = STrue.
Proof.
  intros Hi Hj p0 p d.
  destruct (apply_calls_spec cs p0 (wf_new_plan _ _ _ _)) as (_ & S & _).
  fold p in S.
  rewrite (bool_array_spec p r names periods i j Hi Hj). cbv zeta. fold d.
  rewrite <- (in_span_shape p0 p d S).
  assert (E : pl_start p = start) by (destruct S as (A & _); rewrite <- A; reflexivity).
  rewrite E. unfold p, p0. rewrite registers_last_write_wins. fold p0.
  destruct (in_span p0 d).
  - set (s := after_writes _ _ _ _ _). destruct s; simpl; split; intros H; try discriminate; auto;
      destruct H as [_ H]; discriminate.
  - split; [discriminate | intros [H _]; discriminate].
Qed.

(* the array and the views built on is_active (get_<register>(), is_empty, any_*_except_start: what the frame
   splitter and the public getters report) agree on every point: one effective plan *)
Lemma bool_view_agrees_with_active s : status_bool s = is_active s.
Proof. destruct s; reflexivity. Qed.

(* non-vacuity: on / off / on and on / off histories of exogenize_unanticipated on a 1-variable, 3-period plan *)
Example on_off_on_example :
  let cs := [Write ExogUnant (These [10%Z]) (These [0]) true; Write ExogUnant (These [10%Z; 11%Z]) (These [0]) false;
             Write ExogUnant (These [11%Z]) All true; Write ExogUnant (These [12%Z]) All true;
             Write ExogUnant (These [12%Z]) All false; Write ExogUnant (These [99%Z]) All true] in
  bool_array (fst (apply_calls (new_plan 10 3 1 1) cs)) ExogUnant [0] [9%Z; 10%Z; 11%Z; 12%Z]
  = [[false; false; true; false]].
Proof. reflexivity. Qed.

(* 2. the loop over variants *)

Section Loop.
Variables MV DS PL : Type.
Variables (dm : MV) (dd : DS).
Variable sim1 : MV -> PL -> DS -> DS -> DS.
Notation simulate_variants := (simulate_variants MV DS PL dm dd sim1).

Lemma simulate_variants_length nv ms pl ds : length (simulate_variants nv ms pl ds) = nv.
Proof. unfold SimVariants.simulate_variants. rewrite map_length, seq_length. reflexivity. Qed.

(* variant k of the result: the one-variant simulation of the k-th model variant, reading the exogenized values from,
   and working on, the k-th variant of the input data (the k-th column of every input series) *)
Theorem variant_pointwise nv ms pl ds k : k < nv ->
  nth k (simulate_variants nv ms pl ds) dd = sim1 (etl MV ms dm k) pl (etl DS ds dd k) (etl DS ds dd k).
Proof.
  intros H. unfold SimVariants.simulate_variants.
  rewrite (nth_map_lt _ _ k 0), seq_nth by (rewrite ?seq_length; exact H). reflexivity.
Qed.

End Loop.

(* non-vacuity: data = one number per variant, the "simulator" returns model + 10 * input + 100 * work; two variants
   with different inputs give different results, each from its own input *)
Example variant_loop_example :
  simulate_variants nat nat unit 0 0 (fun m _ input work => m + 10 * input + 100 * work) 3 [1; 2] tt [3; 4; 5]
  = [331; 442; 552].
Proof. reflexivity. Qed.

Example hits_hypothesis_satisfiable :
  forall (m : nat) (pl : unit) (input work : nat) (c : unit), (fun _ _ => true) pl c = true ->
    (fun (d : nat) (_ : unit) => d) ((fun (_ : nat) (_ : unit) (i _ : nat) => i) m pl input work) c
    = (fun (d : nat) (_ : unit) => d) input c.
Proof. reflexivity. Qed.
