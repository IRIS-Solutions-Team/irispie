(* C19: the export block on an arbitrary list of selected periods (model/Csv5.v). *)
From Coq Require Import String ZArith List Lia.
From Verif Require Import lib.Arith lib.ArithOptZ model.Series model.Csv model.Csv5 proofs.SeriesProofs proofs.CsvProofs.
Import ListNotations.
Open Scope Z_scope.

Lemma map_flat_map {X Y Z0} (f : Y -> Z0) (g : X -> list Y) l :
  map f (flat_map g l) = flat_map (fun x => map f (g x)) l.
Proof. induction l as [|x l IH]; [reflexivity|]. cbn [flat_map]. now rewrite map_app, IH. Qed.

Lemma combine_map_r {X Y} (G : X -> Y) l : combine l (map G l) = map (fun t => (t, G t)) l.
Proof. rewrite <- (map_id l) at 1. apply combine_map2. Qed.

Section Csv5Proofs.
Variable A : Arith.
Notation V := (car A).
Notation series := (series A).
Notation itemsT := (list (string * (string * series))).
Variable fmt_period : Z -> Z -> string.
Variable fmt_val : V -> string.
Variable rnd : V -> V.

Lemma hstack2_maps (F G : Z -> list V) ps :
  hstack2 A (map F ps) (map G ps) = map (fun t => F t ++ G t) ps.
Proof. unfold hstack2. rewrite combine_map2, map_map. reflexivity. Qed.

(* the accessor regenerated from the source is the per-period lookup *)
Lemma series_rows_eq (s : series) ps : series_rows A s ps = map (row_at A s) ps.
Proof. reflexivity. Qed.

Lemma hstack_maps (its : itemsT) : forall (F : Z -> list V) ps,
  hstack A (map F ps) (map (fun p => series_rows A (snd (snd p)) ps) its)
  = map (fun t => F t ++ flat_map (fun p => row_at A (snd (snd p)) t) its) ps.
Proof.
  induction its as [|p its IH]; intros F ps.
  - cbn [map flat_map]. unfold hstack. cbn [fold_left]. apply map_ext. intros t. now rewrite app_nil_r.
  - cbn [map flat_map]. unfold hstack. cbn [fold_left].
    rewrite (series_rows_eq (snd (snd p)) ps), hstack2_maps.
    change (fold_left (hstack2 A) ?b ?l) with (hstack A l b).
    rewrite IH. apply map_ext. intros t. now rewrite app_assoc.
Qed.

(* the array the exporter builds: row i = the values of all series of the block AT period i of the list *)
Theorem data_array_rows (its : itemsT) ps :
  data_array A its ps = map (fun t => flat_map (fun p => row_at A (snd (snd p)) t) its) ps.
Proof. unfold data_array. rewrite <- (map_const_repeat (@nil V) ps). rewrite hstack_maps. reflexivity. Qed.

Corollary data_array_length (its : itemsT) ps : length (data_array A its ps) = length ps.
Proof. now rewrite data_array_rows, map_length. Qed.

Lemma data_rows_src_eq (o : wopts) f ps (its : itemsT) :
  data_rows_src A fmt_period fmt_val rnd o f ps its
  = map (fun t => fmt_period f t
                  :: flat_map (fun p => map (val_cell A fmt_val rnd (w_nan o)) (row_at A (snd (snd p)) t)) its
                  ++ [""%string]) ps.
Proof.
  unfold data_rows_src. rewrite data_array_rows, combine_map_r, map_map.
  apply map_ext. intros t. cbn [fst snd]. now rewrite map_flat_map.
Qed.

Lemma zrange_hd_last a b : a <= b -> hd 0 (zrange a (b + 1)) = a /\ last (zrange a (b + 1)) 0 = b.
Proof.
  intros H. unfold zrange. replace (Z.to_nat (b + 1 - a)) with (S (Z.to_nat (b - a))) by lia. split.
  - cbn [seq map hd]. lia.
  - rewrite seq_S, map_app. cbn [map]. rewrite last_last. lia.
Qed.

End Csv5Proofs.

(* on this series one slice from the first to the last selected period differs from the per-period lookup for every
   second period and for descending periods (props/C19.v: C19_csv_slice_refuted) *)
Definition s5 : series OZArith := mkSeries (A:=OZArith) 4 (Some 10) 1%nat [[Some 1]; [Some 2]; [Some 3]; [Some 4]; [Some 5]].

(* non-vacuity: a block with two series (two variants and one), periods picked by hand in no order, with a period
   outside the data *)
Example block_rows_example :
  let fp := fun (_ t : Z) => match t with 10 => "p10" | 12 => "p12" | 13 => "p13" | _ => "p?" end%string in
  let fv := fun x : option Z => match x with Some 1 => "1" | Some 3 => "3" | Some 4 => "4" | Some 7 => "7" | Some 9 => "9"
                                        | Some _ => "n" | None => "?" end%string in
  let a := mkSeries (A:=OZArith) 4 (Some 10) 2%nat [[Some 1; Some 7]; [Some 2; None]; [Some 3; Some 9]] in
  let b := mkSeries (A:=OZArith) 4 (Some 12) 1%nat [[Some 4]] in
  block_grid_src OZArith fp fv (fun x => x) (mkWopts None default_fspan false "NA") 4 4 [12; 10; 13]
    [("a", ("", a)); ("b", ("", b))]%string
  = [["__quarterly__"; "a"; "*"; "b"; ""];
     ["p12"; "3"; "9"; "4"; ""];
     ["p10"; "1"; "7"; "NA"; ""];
     ["p13"; "NA"; "NA"; "NA"; ""];
     [""; ""; ""; ""; ""]]%string.
Proof. reflexivity. Qed.
