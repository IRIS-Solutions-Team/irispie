(* C17: which numbers the equations of a Sequential model are evaluated with (model/SeqSlate.v) over the reals.
   The routing tables slatable_fallbacks_groups / slatable_overwrites_groups, the residual default and the per-entry
   effect of a fallback / an overwrite come from gen/SeqSlatableGen.v (regenerated from
   sequentials/_slatable_protocols.py, dataslates/_variants.py on every run): every lemma below is about the text of
   the source. *)
From Coq Require Import ZArith List Bool Reals.
From Verif Require Import gen.SeqSlatableGen model.Sequential model.SeqSlate
                          proofs.SequentialProofs.
Import ListNotations.

Section Real.
Variable m : R -> bool.
Notation A := (RArithM m).
Notation data := (data A).
Notation expr := (expr A).
Notation eqn := (eqn A).
Notation seqmodel := (seqmodel A).

(* no row is both a parameter and a residual *)
Definition sm_ok (sm : seqmodel) : Prop := forall r, In r (sm_resids sm) -> alookup A (sm_params sm) r = None.

Lemma alookup_resid_in (rs : list nat) r :
  In r rs -> alookup A (map (fun r => (r, default_residual A)) rs) r = Some 0%R.
Proof.
  induction rs as [|k rs IH]; [contradiction|]. intros H. cbn [map alookup].
  destruct (Nat.eqb_spec k r); [reflexivity|]. apply IH. destruct H; [contradiction|assumption].
Qed.

Lemma alookup_resid_out (rs : list nat) r :
  ~ In r rs -> alookup A (map (fun r => (r, default_residual A)) rs) r = None.
Proof.
  induction rs as [|k rs IH]; [reflexivity|]. intros H. cbn [map alookup].
  destruct (Nat.eqb_spec k r); [subst; exfalso; apply H; now left|]. apply IH. intros H'. apply H. now right.
Qed.

(* Which dict decides a row, by the flags: a parameter row is the model's value, the databox value going first where
   it is present under parameters_from_data; a residual row the same with the default 0 and shocks_from_data; any other
   row is the databox row.  (For a row in both dicts the outcome depends on the flag pair: hence the premise.) *)
Lemma initial_slate_spec (sm : seqmodel) pfd sfd (raw : data) r c :
  (In r (sm_resids sm) -> alookup A (sm_params sm) r = None) ->
  initial_slate A sm pfd sfd raw r c =
  match alookup A (sm_params sm) r with
  | Some v => if pfd then (if m (raw r c) then v else raw r c) else v
  | None => if in_dec Nat.eq_dec r (sm_resids sm)
            then (if sfd then (if m (raw r c) then 0 else raw r c) else 0)%R
            else raw r c
  end.
Proof.
  intros Hok. unfold initial_slate, slate_of, slatable_fallbacks, slatable_overwrites.
  destruct (in_dec Nat.eq_dec r (sm_resids sm)) as [Hr | Hn].
  - rewrite (Hok Hr). destruct pfd, sfd; cbn [slatable_fallbacks_groups slatable_overwrites_groups fold_left];
      unfold dupdate, dempty, group_dict, apply_fallback, apply_overwrite;
      rewrite ?(alookup_resid_in _ _ Hr), ?(Hok Hr); reflexivity.
  - destruct (alookup A (sm_params sm) r) eqn:Hp;
      destruct pfd, sfd; cbn [slatable_fallbacks_groups slatable_overwrites_groups fold_left];
      unfold dupdate, dempty, group_dict, apply_fallback, apply_overwrite;
      rewrite ?(alookup_resid_out _ _ Hn), ?Hp; reflexivity.
Qed.

(* parameters_from_data=False: a parameter row carries the value assigned in the model in EVERY column, whatever the
   input databox holds under that name, and whatever shocks_from_data is *)
Theorem slate_parameter_from_model (sm : seqmodel) r v sfd (raw : data) c :
  sm_ok sm -> alookup A (sm_params sm) r = Some v ->
  initial_slate A sm false sfd raw r c = v.
Proof. intros Hok Hp. rewrite initial_slate_spec by apply Hok. now rewrite Hp. Qed.

(* parameters_from_data=True: the databox value where it is not missing, the model's value otherwise *)
Theorem slate_parameter_from_data (sm : seqmodel) r v sfd (raw : data) c :
  sm_ok sm -> alookup A (sm_params sm) r = Some v ->
  initial_slate A sm true sfd raw r c = if m (raw r c) then v else raw r c.
Proof. intros Hok Hp. rewrite initial_slate_spec by apply Hok. now rewrite Hp. Qed.

(* shocks_from_data=True: a residual row carries the input residual where it is not missing, the default (zero)
   otherwise; shocks_from_data=False: zero everywhere -- whatever parameters_from_data is *)
Theorem slate_residual_from_data (sm : seqmodel) r pfd (raw : data) c :
  sm_ok sm -> In r (sm_resids sm) ->
  initial_slate A sm pfd true raw r c = (if m (raw r c) then 0 else raw r c)%R.
Proof.
  intros Hok Hr. rewrite initial_slate_spec, (Hok r Hr) by apply Hok.
  destruct (in_dec Nat.eq_dec r (sm_resids sm)); [reflexivity | contradiction].
Qed.

(* the parameter rows are output rows exactly when parameters_from_data *)
Lemma output_param_rows_spec (sm : seqmodel) pfd sfd :
  output_param_rows A sm pfd sfd = if pfd then map fst (sm_params sm) else [].
Proof. destruct pfd, sfd; reflexivity. Qed.

(* no equation has a parameter row as its LHS or residual row *)
Definition params_not_written (sm : seqmodel) (eqs : list eqn) : Prop :=
  forall e r v, In e eqs -> alookup A (sm_params sm) r = Some v -> e_lhs e <> r /\ e_res e <> Some r.

(* the loop never writes a parameter row: at the END of the simulation it is what the initial array holds there *)
Lemma simulate_public_parameter_row (sm : seqmodel) pfd sfd pl o cols (eqs : list eqn) (raw : data) r v c :
  params_not_written sm eqs -> alookup A (sm_params sm) r = Some v ->
  simulate_public A sm pfd sfd pl o cols eqs raw r c = initial_slate A sm pfd sfd raw r c.
Proof.
  intros Hnw Hp. apply run_frame. intros [t e] Hs Hin.
  apply in_steps_of in Hs as [_ Hs]. destruct (Hnw e r v Hs Hp) as [H1 H2].
  rewrite writes_wrows in Hin. apply in_map_iff in Hin as [w [E Hw]]. injection E as -> _.
  unfold wrows in Hw. destruct Hw as [E|Hw]; [exact (H1 E)|].
  destruct (e_res e) as [r'|]; [|contradiction]. destruct Hw as [->|[]]. now apply H2.
Qed.

(* parameters_from_data=False: every parameter row still carries the model's value *)
Theorem simulate_public_parameter_rows (sm : seqmodel) sfd pl o cols (eqs : list eqn) (raw : data) r v c :
  sm_ok sm -> params_not_written sm eqs -> alookup A (sm_params sm) r = Some v ->
  simulate_public A sm false sfd pl o cols eqs raw r c = v.
Proof.
  intros Hok Hnw Hp. rewrite (simulate_public_parameter_row sm false sfd pl o cols eqs raw r v c Hnw Hp).
  now apply slate_parameter_from_model.
Qed.

(* parameters_from_data=True: ... the databox value where present, the model's value otherwise *)
Theorem simulate_public_parameter_rows_from_data (sm : seqmodel) sfd pl o cols (eqs : list eqn) (raw : data) r v c :
  sm_ok sm -> params_not_written sm eqs -> alookup A (sm_params sm) r = Some v ->
  simulate_public A sm true sfd pl o cols eqs raw r c = if m (raw r c) then v else raw r c.
Proof.
  intros Hok Hnw Hp. rewrite (simulate_public_parameter_row sm true sfd pl o cols eqs raw r v c Hnw Hp).
  now apply slate_parameter_from_data.
Qed.

Lemma eval_subst_params (pv : alist A) (d : data) (e : expr) t :
  (forall r v, alookup A pv r = Some v -> forall c, d r c = v) ->
  eval A (subst_params A pv e) d t = eval A e d t.
Proof.
  intros H. induction e; cbn [subst_params eval]; try (now rewrite ?IHe1, ?IHe2, ?IHe).
  destruct (alookup A pv r) as [v|] eqn:E; cbn [eval]; [symmetry; now apply H | reflexivity].
Qed.

Lemma holds_subst (pv : alist A) (d : data) (e : eqn) t :
  (forall r v, alookup A pv r = Some v -> forall c, d r c = v) ->
  holds m e t d -> holds m (subst_eqn A pv e) t d.
Proof.
  intros H. unfold holds, lhs_value, rhs_total, subst_eqn. cbn [e_lhs e_tr e_rhs e_res].
  now rewrite (eval_subst_params pv d (e_rhs e) t H).
Qed.

(* the public entry point, parameters_from_data=False:
   for EVERY input databox `raw` (also one that holds entries named like the parameters), either value of
   shocks_from_data, every plan, either execution order whose steps are reads-before-writes: at the end each
   equation -- with the model's parameter values in place of the parameter names -- holds together with its
   residual in every simulated period *)
Theorem simulate_public_correct (sm : seqmodel) sfd pl o cols (eqs : list eqn) (raw : data) :
  sm_ok sm -> params_not_written sm eqs ->
  rbw m pl (steps_of A o cols eqs) -> (forall e, In e eqs -> eqn_ok m e) ->
  let dN := simulate_public A sm false sfd pl o cols eqs raw in
  (forall t e, In t cols -> In e eqs -> dom_ok m pl (t, e) dN) ->
  forall t e, In t cols -> In e eqs -> holds m (subst_eqn A (sm_params sm) e) t dN.
Proof.
  intros Hok Hnw Hrbw Heq dN Hdom t e Ht He. apply holds_subst.
  - intros r v Hp c. unfold dN. now apply simulate_public_parameter_rows.
  - unfold dN, simulate_public. now apply simulate_model_correct.
Qed.

(* rows: 0 = y, 1 = p (parameter, 1/2 in the model), 2 = res_y ;   y = p*y[-1]  [+ res_y] *)
Definition exs_sm : seqmodel := mkSeqModel A [(1%nat, (1/2)%R)] [2%nat].
Definition exs_eqs : list eqn := [ mkEqn A 0%nat TNone (EMul A (EVar A 1%nat 0%Z) (EVar A 0%nat (-1)%Z)) (Some 2%nat) ].
Definition exs_plan : plan := fun _ _ => None.
Definition exs_cols : list Z := [0; 1]%Z.

End Real.
