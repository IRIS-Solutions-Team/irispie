(* C10: fill_missing("linear") between two bracketing observations, on the total map. *)
From Coq Require Import ZArith List Lia.
From Verif Require Import lib.Arith model.Series model.SeriesOps proofs.SeriesProofs proofs.SeriesFillProofs.
Import ListNotations.
Open Scope Z_scope.

Section FillLin.
Variable A : Arith.
Notation V := (car A).
Notation series := (series A).
Hypothesis miss_law : forall x : V, is_miss A x = true -> x = miss A.
Notation at_ col j := (nth j col (miss A)).

Lemma fill_col_linear dates c (col : list V) i p n : (i < length col)%nat ->
  is_miss A (at_ col i) = true ->
  prev_obs i (obs_indexes A col) = Some p -> next_obs i (obs_indexes A col) = Some n ->
  nth i (fill_col A (FillLinear A) dates c col) (miss A)
  = add A (at_ col p) (mul A (sub A (at_ col n) (at_ col p))
                          (div A (ofZ A (Z.of_nat i - Z.of_nat p)) (ofZ A (Z.of_nat n - Z.of_nat p)))).
Proof.
  intros Hi Hm Hp Hn. unfold fill_col. destruct (obs_indexes A col) eqn:Eo.
  - unfold prev_obs in Hp. simpl in Hp. discriminate.
  - rewrite (nth_map_combine_seq A) by assumption. unfold is_obs. rewrite Hm. cbn [negb]. cbv iota.
    now rewrite Hp, Hn.
Qed.

(* linear: a missing cell strictly between two observations u1 < t < u2 of the range, with nothing observed
   in between, takes x(u1) + (x(u2) - x(u1)) * ((t - u1) / (u2 - u1)), in this order of operations *)
Theorem fill_linear_spec fr span (s : series) a b t c u1 u2 : WF A s ->
  fill_dates A span s = zrange a (b + 1) -> (c < s_nv s)%nat ->
  a <= u1 -> u1 < t -> t < u2 -> u2 <= b ->
  is_miss A (cell A s u1 c) = false -> is_miss A (cell A s u2 c) = false ->
  (forall w, u1 < w < u2 -> is_miss A (cell A s w c) = true) ->
  cell A (fill_missing A fr (FillLinear A) span s) t c
  = add A (cell A s u1 c) (mul A (sub A (cell A s u2 c) (cell A s u1 c))
                              (div A (ofZ A (t - u1)) (ofZ A (u2 - u1)))).
Proof.
  intros Hwf Hd Hc H1 H2 H3 H4 Ho1 Ho2 Hg.
  destruct (offset_ex a u1 H1) as [p ->], (offset_ex a t ltac:(lia)) as [i ->], (offset_ex a u2 ltac:(lia)) as [n ->].
  rewrite (fill_missing_at A miss_law fr _ span s a b i c Hwf Hd) by (assumption || lia).
  set (col := col_span A s a b c).
  pose proof (col_span_length A s a b c) as Hlen. fold col in Hlen.
  assert (Hn : forall j, (j < length col)%nat -> at_ col j = cell A s (a + Z.of_nat j) c)
    by (intros j Hj; subst col; apply col_span_nth; lia).
  assert (Hgap : forall l, (p < l < n)%nat -> is_miss A (at_ col l) = true).
  { intros l Hl. rewrite Hn by lia. apply Hg. lia. }
  rewrite (fill_col_linear _ c col i p n).
  - rewrite !Hn by lia. do 4 f_equal; lia.
  - lia.
  - apply Hgap. lia.
  - apply prev_obs_unique; [lia..|now rewrite Hn by lia|]. intros l Hl. apply Hgap. lia.
  - apply next_obs_unique; [lia..|now rewrite Hn by lia|]. intros l Hl. apply Hgap. lia.
Qed.

End FillLin.
