(* C19: import (export db) returns the exported series: names, descriptions, variant counts and,
   period by period, the rounded values on the exported span.  The sheet is a grid of cells;
   period <-> text and number <-> text are abstract codecs with round-trip hypotheses. *)
From Coq Require Import String ZArith List Bool Lia.
From Verif Require Import lib.Arith model.Series model.SeriesOps model.Databox model.Csv gen.CsvGen
  proofs.SeriesProofs proofs.SeriesOpsProofs proofs.DataboxProofs.
Import ListNotations.
Open Scope Z_scope.

Lemma map_seq_map {X Y} (g : X -> Y) (F : nat -> Y) (l : list X) d :
  (forall r, (r < length l)%nat -> F r = g (nth r l d)) -> map F (seq 0 (length l)) = map g l.
Proof.
  intros H. rewrite <- (map_length g l). apply (map_seq_nth F (map g l) (g d)).
  intros c Hc. rewrite map_length in Hc. rewrite map_nth. now apply H.
Qed.

Lemma map_seq_const {T} (F : nat -> T) c k : forall a, (forall r, (a <= r)%nat -> F r = c) -> map F (seq a k) = repeat c k.
Proof.
  induction k as [|k IH]; intros a H; cbn [seq map repeat]; [reflexivity|].
  rewrite (H a) by lia. f_equal. apply IH. intros r Hr. apply H. lia.
Qed.

Lemma combine_map2 {X Y Z0} (f : X -> Y) (g : X -> Z0) l :
  combine (map f l) (map g l) = map (fun x => (f x, g x)) l.
Proof. induction l; simpl; [reflexivity|now rewrite IHl]. Qed.

Definition offset {T} (ls : list (list T)) (i : nat) : nat := length (concat (firstn i ls)).

Lemma offset_S {T} (ls : list (list T)) i : (i < length ls)%nat ->
  offset ls (S i) = (offset ls i + length (nth i ls []))%nat.
Proof.
  unfold offset. revert i. induction ls as [|x r IH]; intros i Hi; simpl in Hi; [lia|].
  destruct i; simpl.
  - rewrite !app_length. simpl. lia.
  - rewrite !app_length. specialize (IH i ltac:(lia)). simpl in IH. rewrite IH. lia.
Qed.

Lemma concat_split {T} (ls : list (list T)) i : (i < length ls)%nat ->
  concat ls = concat (firstn i ls) ++ nth i ls [] ++ concat (skipn (S i) ls).
Proof.
  revert i. induction ls as [|x r IH]; intros i Hi; simpl in Hi; [lia|].
  destruct i; simpl; [reflexivity|]. now rewrite <- app_assoc, <- IH by lia.
Qed.

Lemma nth_concat {T} (ls : list (list T)) i j d : (i < length ls)%nat -> (j < length (nth i ls []))%nat ->
  nth (offset ls i + j) (concat ls) d = nth j (nth i ls []) d.
Proof.
  intros Hi Hj. rewrite (concat_split ls i Hi). unfold offset.
  rewrite app_nth2_plus. now apply app_nth1.
Qed.

Lemma slice_mid {T} (p : list T) m body s :
  slice (p ++ (m :: body) ++ s) (S (length p)) (length p + S (length body)) = body.
Proof.
  unfold slice. replace (length p + S (length body) - S (length p))%nat with (length body) by lia.
  replace (S (length p)) with (length p + 1)%nat by lia.
  rewrite skipn_app, skipn_all2 by lia. replace (length p + 1 - length p)%nat with 1%nat by lia.
  simpl. rewrite firstn_app, firstn_all, Nat.sub_diag. simpl. apply app_nil_r.
Qed.

Lemma filter_none {X} (p : X -> bool) l : (forall x, In x l -> p x = false) -> filter p l = [].
Proof.
  induction l as [|a r IH]; simpl; intros H; [reflexivity|].
  rewrite (H a) by now left. apply IH. intros x Hx. apply H. now right.
Qed.

Lemma filter_map_seq_prefix {T} (p : T -> bool) (f : nat -> T) len total : (len <= total)%nat ->
  (forall r, (r < total)%nat -> p (f r) = Nat.ltb r len) ->
  filter p (map f (seq 0 total)) = map f (seq 0 len).
Proof.
  intros Hle Hp. replace total with (len + (total - len))%nat in * by lia.
  set (m := (total - len)%nat) in *. clearbody m. rewrite seq_app, map_app, filter_app. simpl.
  rewrite filter_all.
  - rewrite filter_none; [apply app_nil_r|]. intros x Hx. apply in_map_iff in Hx as (r & <- & Hr). apply in_seq in Hr.
    rewrite Hp by lia. destruct (Nat.ltb_spec r len); [lia|reflexivity].
  - intros x Hx. apply in_map_iff in Hx as (r & <- & Hr). apply in_seq in Hr.
    rewrite Hp by lia. destruct (Nat.ltb_spec r len); [reflexivity|lia].
Qed.

Lemma all_some_map_Some {X T} (g : X -> T) l : all_some (map (fun x => Some (g x)) l) = Some (map g l).
Proof. induction l; simpl; [reflexivity|now rewrite IHl]. Qed.

Lemma scan_body body : forall rest col f dc, Forall (fun c => is_end c = false) body ->
  scan (body ++ rest) col (Some (f, dc)) = scan rest (col + length body) (Some (f, dc)).
Proof.
  induction body as [|c b IH]; intros rest col f dc H; simpl.
  - now rewrite Nat.add_0_r.
  - inversion H; subst. rewrite H2. simpl. rewrite IH by assumption. f_equal. lia.
Qed.

Lemma is_start_is_end c f : is_start c = Some f -> is_end c = true.
Proof. unfold is_start, is_end. destruct (prefix "__" c); [reflexivity|discriminate]. Qed.

(* a start mark closes the open block, if any (it is an end mark too), and opens one at its column *)
Lemma scan_start c f rest col cur : is_start c = Some f ->
  scan (c :: rest) col cur
  = (match cur with Some (f0, dc) => [(f0, dc, col)] | None => [] end) ++ scan rest (S col) (Some (f, col)).
Proof. intros Hs. cbn [scan]. rewrite (is_start_is_end _ _ Hs), Hs. now destruct cur as [[f0 dc]|]. Qed.

(* a name cell closes the open group, if any, and opens one at its column *)
Lemma col_iter_name n d rest i cur : n <> ""%string -> n <> "*"%string ->
  col_iter ((n, d) :: rest) i cur = (match cur with Some g => [g] | None => [] end) ++ col_iter rest (S i) (Some ([i], n, d)).
Proof.
  intros H0 Hs. cbn [col_iter]. unfold str_nonempty. rewrite (proj2 (String.eqb_neq n "*") Hs), (proj2 (String.eqb_neq n "") H0).
  now destruct cur as [[[cs cn] cd]|].
Qed.

Lemma col_iter_stars ex : forall rest i cs cn cd,
  col_iter (map (fun e => ("*"%string, e)) ex ++ rest) i (Some (cs, cn, cd))
  = col_iter rest (i + length ex) (Some (cs ++ seq i (length ex), cn, cd)).
Proof.
  induction ex as [|e ex IH]; intros rest i cs cn cd; simpl.
  - now rewrite Nat.add_0_r, app_nil_r.
  - rewrite IH. rewrite <- app_assoc. simpl. f_equal. lia.
Qed.

Lemma fold_add_sum l : forall a, fold_left Nat.add l a = (a + list_sum l)%nat.
Proof. induction l as [|x r IH]; intros a; simpl; [lia|]. rewrite IH. lia. Qed.

Lemma combine_repeat {X Y} (a : X) (b : Y) k : combine (repeat a k) (repeat b k) = map (fun e => (a, e)) (repeat b k).
Proof. induction k; simpl; [reflexivity|]. now f_equal. Qed.

Lemma seq_add a n : seq a n = map (fun r => (a + r)%nat) (seq 0 n).
Proof.
  induction a as [|a IH]; [now rewrite map_id|].
  rewrite <- seq_shift, IH, map_map. reflexivity.
Qed.

Lemma slice_repeat {T} (x : T) N c m : (c + S m <= N)%nat -> slice (repeat x N) (S c) (c + S m) = repeat x m.
Proof.
  intros H. replace N with (c + (S m + (N - c - S m)))%nat by lia. rewrite !repeat_app.
  pose proof (slice_mid (repeat x c) x (repeat x m) (repeat x (N - c - S m))) as E. now rewrite !repeat_length in E.
Qed.

Lemma NoDup_fst_inj {X Y} (l : list (X * Y)) k v v' : NoDup (map fst l) -> In (k, v) l -> In (k, v') l -> v = v'.
Proof.
  induction l as [|[k0 v0] l IH]; cbn [map fst In]; intros Hnd H H'; [destruct H|]. inversion Hnd as [|? ? Hn Hl]; subst.
  destruct H as [E|H], H' as [E'|H']; try congruence; try (now apply IH); exfalso; apply Hn;
    [inversion E; subst; now apply (in_map fst) in H'|inversion E'; subst; now apply (in_map fst) in H].
Qed.

Definition good_name (n : string) : Prop := n <> ""%string /\ n <> "*"%string /\ prefix "__" n = false.

Section CsvProofs.
Variable A : Arith.
Notation V := (car A).
Notation series := (series A).
Notation databox := (databox A).
Hypothesis miss_law : forall x : V, is_miss A x = true -> x = miss A.

Variable fmt_period : Z -> Z -> string.
Variable parse_period : Z -> string -> option Z.
Variable fmt_val : V -> string.
Variable parse_val : string -> V.
Variable rnd : V -> V.
Hypothesis fmt_period_nonempty : forall f t, fmt_period f t <> ""%string.
Hypothesis period_roundtrip : forall f t, parse_period f (fmt_period f t) = Some t.
Hypothesis value_roundtrip : forall x, is_miss A (rnd x) = false -> parse_val (fmt_val (rnd x)) = rnd x.
Variable o : wopts.
Hypothesis nan_roundtrip : parse_val (w_nan o) = miss A.

Notation vcell := (val_cell A fmt_val rnd (w_nan o)).

Lemma parse_vcell x : parse_val (vcell x) = rnd x.
Proof.
  unfold val_cell. destruct (is_miss A (rnd x)) eqn:E.
  - rewrite nan_roundtrip. symmetry. now apply miss_law.
  - now apply value_roundtrip.
Qed.

(* a block (frequency, periods, series with name and description) as _ExportBlock.__iter__ writes it: name row,
   description row, one data row per period, padding rows; then the rows of the sheet of several blocks side by side *)
Definition itemsT := list (string * (string * series)).
Definition blockT := (Z * list Z * itemsT)%type.

Definition nvs (its : itemsT) : list nat := map (fun p => s_nv (snd (snd p))) its.
Definition sumnv (its : itemsT) : nat := list_sum (nvs its).
Definition its_ok (its : itemsT) : Prop :=
  Forall (fun p => good_name (fst p) /\ WF A (snd (snd p)) /\ (1 <= s_nv (snd (snd p)))%nat) its.

Definition hbody (its : itemsT) : row := header_cells (combine (map fst its) (nvs its)) ++ [""%string].
Definition dbody (its : itemsT) : row :=
  header_cells (combine (map (fun p => fst (snd p)) its) (nvs its)) ++ [""%string].
Definition drow (f : Z) (its : itemsT) (t : Z) : row :=
  fmt_period f t :: flat_map (fun p => map vcell (row_at A (snd (snd p)) t)) its ++ [""%string].
Definition padrow (its : itemsT) : row := ""%string :: repeat ""%string (fold_left Nat.add (nvs its) O) ++ [""%string].
Definition datarow (b : blockT) (r : nat) : row :=
  if Nat.ltb r (length (snd (fst b))) then drow (fst (fst b)) (snd b) (nth r (snd (fst b)) 0) else padrow (snd b).
Definition bgrid (total : nat) (b : blockT) : grid :=
  block_grid A fmt_period fmt_val rnd o total (fst (fst b)) (snd (fst b)) (snd b).

Lemma bgrid_eq total b : bgrid total b =
  [mark_of_freq (fst (fst b)) :: hbody (snd b)] ++ (if w_desc o then [""%string :: dbody (snd b)] else [])
  ++ map (drow (fst (fst b)) (snd b)) (snd (fst b)) ++ repeat (padrow (snd b)) (total - length (snd (fst b))).
Proof. reflexivity. Qed.

Lemma bgrid_nth0 total b : nth 0 (bgrid total b) [] = mark_of_freq (fst (fst b)) :: hbody (snd b).
Proof. reflexivity. Qed.

Definition hdr (b : blockT) : row := mark_of_freq (fst (fst b)) :: hbody (snd b).

Lemma bgrid_rows total b : (length (snd (fst b)) <= total)%nat ->
  bgrid total b = hdr b :: (if w_desc o then [""%string :: dbody (snd b)] else []) ++ map (datarow b) (seq 0 total).
Proof.
  intros Hle. rewrite bgrid_eq. unfold hdr. cbn [app]. do 2 f_equal. destruct b as [[f ps] its]. cbn [fst snd] in *.
  replace total with (length ps + (total - length ps))%nat at 2 by lia. rewrite seq_app, map_app. f_equal; symmetry.
  - apply map_seq_map with (d := 0). intros r Hr. unfold datarow. cbn [fst snd].
    now destruct (Nat.ltb_spec r (length ps)); [|lia].
  - apply map_seq_const. intros r Hr. unfold datarow. cbn [fst snd]. now destruct (Nat.ltb_spec r (length ps)); [lia|].
Qed.

Lemma hcells_length (g : string * (string * series) -> string) (its : itemsT) : its_ok its ->
  length (header_cells (combine (map g its) (nvs its))) = sumnv its.
Proof.
  unfold sumnv. induction 1 as [|p r (_ & _ & Hp) Hr IH]; [reflexivity|].
  cbn [map nvs combine header_cells flat_map fst snd list_sum]. rewrite app_length. cbn [length].
  fold (nvs r). fold (header_cells (combine (map g r) (nvs r))). rewrite repeat_length, IH.
  change (list_sum (?x :: ?l)) with (x + list_sum l)%nat. lia.
Qed.

Lemma hbody_length its : its_ok its -> length (hbody its) = S (sumnv its).
Proof. intros H. unfold hbody. rewrite app_length, hcells_length by assumption. simpl. lia. Qed.

Lemma dbody_length its : its_ok its -> length (dbody its) = S (sumnv its).
Proof. intros H. unfold dbody. rewrite app_length, hcells_length by assumption. simpl. lia. Qed.

Lemma vals_length (its : itemsT) t : its_ok its ->
  length (flat_map (fun p => map vcell (row_at A (snd (snd p)) t)) its) = sumnv its.
Proof.
  unfold sumnv, nvs. induction 1 as [|p r Hp Hr IH]; [reflexivity|].
  cbn [flat_map map]. change (list_sum (?x :: ?l)) with (x + list_sum l)%nat.
  rewrite app_length, map_length, IH. rewrite row_at_length by tauto. reflexivity.
Qed.

Lemma drow_length f its t : its_ok its -> length (drow f its t) = S (S (sumnv its)).
Proof. intros H. unfold drow. cbn [length]. rewrite app_length, vals_length by assumption. simpl. lia. Qed.

Lemma padrow_length its : length (padrow its) = S (S (sumnv its)).
Proof.
  unfold padrow. cbn [length]. rewrite app_length, repeat_length, fold_add_sum. unfold sumnv. simpl. lia.
Qed.

Lemma datarow_length b r : its_ok (snd b) -> length (datarow b r) = S (S (sumnv (snd b))).
Proof. intros H. unfold datarow. destruct (Nat.ltb _ _); [now apply drow_length|apply padrow_length]. Qed.

Definition sheet_names (bl : list blockT) : row := flat_map hdr bl.
Definition sheet_descs (bl : list blockT) : row := flat_map (fun b => ""%string :: dbody (snd b)) bl.
Definition sheet_data (bl : list blockT) (r : nat) : row := flat_map (fun b => datarow b r) bl.

Definition b_ok (total : nat) (b : blockT) : Prop :=
  its_ok (snd b) /\ snd (fst b) <> [] /\ (length (snd (fst b)) <= total)%nat /\
  is_start (mark_of_freq (fst (fst b))) = Some (fst (fst b)).

Lemma grid_shape total (b : blockT) r : Forall (b_ok total) (b :: r) ->
  hcat_all (map (bgrid total) (b :: r))
  = sheet_names (b :: r) :: (if w_desc o then [sheet_descs (b :: r)] else []) ++ map (sheet_data (b :: r)) (seq 0 total).
Proof.
  revert b. induction r as [|b2 r IH]; intros b Hok; inversion Hok as [|? ? Hb Hr]; subst.
  - cbn [map hcat_all]. rewrite bgrid_rows by apply Hb. unfold sheet_names, sheet_descs, sheet_data.
    cbn [flat_map]. rewrite !app_nil_r.
    do 2 f_equal. apply map_ext. intros k. now rewrite app_nil_r.
  - change (hcat_all (map (bgrid total) (b :: b2 :: r))) with (hcat (bgrid total b) (hcat_all (map (bgrid total) (b2 :: r)))).
    rewrite IH, bgrid_rows by (assumption || apply Hb).
    unfold hcat. destruct (w_desc o); cbn [app combine map fst snd]; rewrite combine_map2, map_map; reflexivity.
Qed.

Lemma widths_pre total (pre : list blockT) : Forall (b_ok total) pre ->
  length (sheet_descs pre) = length (sheet_names pre) /\ forall r, length (sheet_data pre r) = length (sheet_names pre).
Proof.
  unfold sheet_descs, sheet_names, sheet_data. induction 1 as [|b r Hb Hr [IH1 IH2]]; [split; reflexivity|].
  destruct Hb as (Hits & _).
  assert (E1 : length (hdr b) = S (S (sumnv (snd b)))) by (unfold hdr; cbn [length]; now rewrite hbody_length).
  assert (E2 : length (""%string :: dbody (snd b)) = S (S (sumnv (snd b)))) by (cbn [length]; now rewrite dbody_length).
  split.
  - cbn [flat_map]. rewrite !app_length. rewrite E1, E2, IH1. reflexivity.
  - intros r0. cbn [flat_map]. rewrite !app_length. rewrite IH2, datarow_length, E1 by assumption. reflexivity.
Qed.

Definition imp_series (f : Z) (ps : list Z) (s : series) : series :=
  set_data A f (empty_series A (s_nv s)) ps (map (fun t => map rnd (row_at A s t)) ps) None.

Definition imported (b : blockT) : list (string * item A) :=
  map (fun p => let s' := imp_series (fst (fst b)) (snd (fst b)) (snd (snd p)) in
                (fst p, ISer A (kept_desc A (snd (fst b)) s' (if w_desc o then fst (snd p) else ""%string)) s'))
      (snd b).

(* the description cell of an item, the cells of the description row under the name cells of the items, and the
   column groups the column iterator finds there *)
Definition dcell_of (p : string * (string * series)) : string := if w_desc o then fst (snd p) else ""%string.
Definition dcells (its : itemsT) : row :=
  if w_desc o then header_cells (combine (map (fun p => fst (snd p)) its) (nvs its)) else repeat ""%string (sumnv its).
Fixpoint groups_of (its : itemsT) (i : nat) : list (list nat * string * string) :=
  match its with
  | [] => []
  | p :: r => (seq i (s_nv (snd (snd p))), fst p, dcell_of p) :: groups_of r (i + s_nv (snd (snd p)))
  end.

Lemma col_iter_items (post : itemsT) : its_ok post -> forall i cur x y,
  col_iter (combine (header_cells (combine (map fst post) (nvs post)) ++ [""%string; ""%string]) (dcells post ++ [x; y])) i cur
  = (match cur with Some g => [g] | None => [] end) ++ groups_of post i.
Proof.
  induction 1 as [|p post ((Hn1 & Hn2 & _) & _ & Hnv) Hpost IH]; intros i cur x y.
  - unfold dcells. destruct (w_desc o); cbn; destruct cur as [[[cs cn] cd]|]; reflexivity.
  - set (nv := s_nv (snd (snd p))) in *.
    assert (Ed : dcells (p :: post) = (dcell_of p :: repeat (if w_desc o then "*" else "")%string (nv - 1)) ++ dcells post).
    { unfold dcells, dcell_of, sumnv. destruct (w_desc o); [reflexivity|]. cbn [nvs map].
      change (list_sum (?x :: ?l)) with (x + list_sum l)%nat. fold nv. rewrite repeat_app.
      replace nv with (S (nv - 1)) at 1 by lia. reflexivity. }
    rewrite Ed. cbn [map nvs combine header_cells flat_map fst snd]. fold nv.
    fold (nvs post). fold (header_cells (combine (map fst post) (nvs post))).
    rewrite <- !app_assoc. cbn [app combine]. rewrite combine_app', combine_repeat by now rewrite !repeat_length.
    rewrite col_iter_name, col_iter_stars, IH, repeat_length by assumption. cbn [groups_of app]. fold nv. f_equal.
    replace (seq i nv) with (i :: seq (S i) (nv - 1)) by (replace nv with (S (nv - 1)) at 2 by lia; reflexivity).
    replace (S i + (nv - 1))%nat with (i + nv)%nat by lia. reflexivity.
Qed.

Lemma import_groups_fold (DATAw : nat -> row) c f ps (its : itemsT) : its_ok its -> forall i acc,
  (forall r j, (r < length ps)%nat -> (j < sumnv its)%nat ->
     cell_at (DATAw r) (c + i + j)
     = nth j (flat_map (fun p => map vcell (row_at A (snd (snd p)) (nth r ps 0))) its) ""%string) ->
  fold_left (fun d g => let '(cs, n, ds) := g in
               let s := set_data A f (empty_series A (length cs)) ps
                          (map (fun r => map (fun k => parse_val (cell_at r (c + k))) cs)
                               (map DATAw (seq 0 (length ps)))) None in
               dset A d n (ISer A (kept_desc A ps s ds) s))
            (groups_of its i) acc
  = fold_left (fun d q => dset A d (fst q) (snd q)) (imported (f, ps, its)) acc.
Proof.
  induction 1 as [|p its (_ & Hwf & _) Hits IH]; intros i acc Hcell; [reflexivity|].
  cbn [groups_of fold_left]. unfold imported at 1. cbn [map fold_left fst snd]. rewrite seq_length.
  change (sumnv (p :: its)) with (s_nv (snd (snd p)) + sumnv its)%nat in Hcell. set (nv := s_nv (snd (snd p))) in *.
  assert (Hlen : forall t, length (row_at A (snd (snd p)) t) = nv) by (intros t; now apply row_at_length).
  assert (Erows : map (fun r => map (fun k => parse_val (cell_at r (c + k))) (seq i nv)) (map DATAw (seq 0 (length ps)))
                  = map (fun t => map rnd (row_at A (snd (snd p)) t)) ps).
  { rewrite map_map. apply map_seq_map with (d := 0). intros r Hr.
    rewrite (seq_add i), map_map, <- (Hlen (nth r ps 0)). apply map_seq_map with (d := miss A). intros m Hm.
    rewrite Nat.add_assoc, Hcell by (rewrite Hlen in Hm; lia). cbn [flat_map].
    rewrite app_nth1 by now rewrite map_length. rewrite nth_map_in with (d' := miss A) by assumption.
    apply parse_vcell. }
  rewrite Erows. apply IH. intros r j Hr Hj.
  replace (c + (i + nv) + j)%nat with (c + i + (nv + j))%nat by lia. rewrite Hcell by lia. cbn [flat_map].
  rewrite <- (Hlen (nth r ps 0)), <- (map_length vcell). apply app_nth2_plus.
Qed.

Lemma import_block_step (NRw DRw : row) (DATAw : nat -> row) total col f ps (its : itemsT) acc :
  b_ok total (f, ps, its) ->
  slice NRw (S col) (col + S (length (hbody its))) = hbody its ->
  slice DRw (S col) (col + S (length (hbody its))) = dcells its ++ [""%string] ->
  (forall r j, (r < total)%nat -> (j < S (S (sumnv its)))%nat ->
               cell_at (DATAw r) (col + j) = nth j (datarow (f, ps, its) r) ""%string) ->
  import_block A parse_period parse_val NRw DRw (map DATAw (seq 0 total)) (Ok acc) (f, col, (col + S (length (hbody its)))%nat)
  = Ok (fold_left (fun d q => dset A d (fst q) (snd q)) (imported (f, ps, its)) acc).
Proof.
  intros (Hits & Hne & Hle & Hst) Hn Hd Hcell. cbn [fst snd] in *.
  assert (Hlen : (0 < length ps)%nat) by (destruct ps; [contradiction|simpl; lia]).
  assert (Hdate : forall r, (r < total)%nat ->
            cell_at (DATAw r) col = if Nat.ltb r (length ps) then fmt_period f (nth r ps 0) else ""%string).
  { intros r Hr. rewrite <- (Nat.add_0_r col) at 1. rewrite Hcell by lia. unfold datarow. cbn [fst snd].
    destruct (Nat.ltb r (length ps)); reflexivity. }
  unfold import_block. destruct total as [|total']; [lia|]. cbn [seq map]. rewrite Hdate by lia.
  change (DATAw 0%nat :: map DATAw (seq 1 total')) with (map DATAw (seq 0 (S total'))). set (total := S total') in *.
  destruct (Nat.ltb_spec 0 (length ps)); [|lia]. rewrite period_roundtrip.
  rewrite (filter_map_seq_prefix _ DATAw (length ps) total Hle).
  2:{ intros r Hr. rewrite Hdate by assumption. unfold str_nonempty.
      destruct (Nat.ltb r (length ps)); [|reflexivity].
      apply negb_true_iff. apply String.eqb_neq. apply fmt_period_nonempty. }
  rewrite map_map, (map_ext_in _ (fun r => Some (nth r ps 0))), all_some_map_Some, (map_seq_nth _ ps 0 (fun _ _ => eq_refl)).
  2:{ intros r Hr. apply in_seq in Hr. rewrite Hdate by lia.
      destruct (Nat.ltb_spec r (length ps)); [|lia]. apply period_roundtrip. }
  rewrite Hn, Hd. unfold hbody. rewrite <- !app_assoc. cbn [app]. rewrite col_iter_items by assumption.
  cbn [app]. f_equal.
  apply (import_groups_fold DATAw (S col) f ps its Hits 0).
  intros r j Hr Hj. replace (S col + 0 + j)%nat with (col + S j)%nat by lia. rewrite Hcell by lia.
  unfold datarow. cbn [fst snd]. destruct (Nat.ltb_spec r (length ps)); [|lia].
  unfold drow. cbn [nth]. apply app_nth1. now rewrite vals_length.
Qed.

Lemma hbody_no_end (its : itemsT) : its_ok its -> Forall (fun c => is_end c = false) (hbody its).
Proof.
  intros H. unfold hbody, header_cells, nvs. rewrite combine_map2. apply Forall_app. split; [|repeat constructor].
  apply Forall_flat_map, Forall_map. eapply Forall_impl; [|exact H]. intros p ((_ & _ & Hp) & _). cbn [fst snd].
  constructor; [exact Hp|]. apply Forall_forall. intros c Hc. apply repeat_spec in Hc. now subst c.
Qed.

Fixpoint blocks_from (bl : list blockT) (col : nat) : list (Z * nat * nat) :=
  match bl with
  | [] => []
  | b :: r => (fst (fst b), col, col + S (length (hbody (snd b))))%nat :: blocks_from r (col + S (length (hbody (snd b))))
  end.

Lemma scan_marks total (bl : list blockT) : Forall (b_ok total) bl -> forall col cur,
  scan (sheet_names bl ++ ["__"%string]) col cur
  = (match cur with Some (f, dc) => [(f, dc, col)] | None => [] end) ++ blocks_from bl col.
Proof.
  induction 1 as [|b r (Hits & _ & _ & Hs) _ IH]; intros col cur.
  - destruct cur as [[f dc]|]; reflexivity.
  - unfold sheet_names. cbn [flat_map]. unfold hdr at 1. rewrite <- app_assoc. cbn [app].
    rewrite (scan_start _ _ _ _ _ Hs), scan_body, Nat.add_succ_comm by now apply hbody_no_end.
    now rewrite IH.
Qed.

Lemma import_blocks_fold total (bl : list blockT) : Forall (b_ok total) bl ->
  forall post pre acc, bl = pre ++ post ->
  fold_left (import_block A parse_period parse_val (sheet_names bl)
               (if w_desc o then sheet_descs bl else repeat ""%string (length (sheet_names bl)))
               (map (sheet_data bl) (seq 0 total)))
            (blocks_from post (length (sheet_names pre))) (Ok acc)
  = Ok (fold_left (fun d q => dset A d (fst q) (snd q)) (concat (map imported post)) acc).
Proof.
  intros Hok. induction post as [|b post IH]; intros pre acc E; [reflexivity|].
  destruct b as [[f ps] its]. cbn [blocks_from fst snd fold_left].
  assert (Hall : Forall (b_ok total) pre /\ b_ok total (f, ps, its) /\ Forall (b_ok total) post).
  { rewrite E in Hok. apply Forall_app in Hok as [H1 H2]. inversion H2; subst. tauto. }
  destruct Hall as (Hpre & Hb & Hpost).
  destruct (widths_pre total pre Hpre) as [Wd Wdata].
  assert (Hits : its_ok its) by (destruct Hb; assumption).
  assert (Esplit : forall T (g : blockT -> list T), flat_map g bl = flat_map g pre ++ g (f, ps, its) ++ flat_map g post).
  { intros T g. rewrite E. apply flat_map_app. }
  rewrite (import_block_step _ _ (sheet_data bl) total (length (sheet_names pre)) f ps its acc Hb).
  - specialize (IH (pre ++ [(f, ps, its)]) (fold_left (fun d q => dset A d (fst q) (snd q)) (imported (f, ps, its)) acc)).
    assert (EL : length (sheet_names (pre ++ [(f, ps, its)])) = (length (sheet_names pre) + S (length (hbody its)))%nat).
    { unfold sheet_names. rewrite flat_map_app, app_length. cbn [flat_map hdr fst snd]. now rewrite app_nil_r. }
    rewrite EL in IH. rewrite IH by (rewrite <- app_assoc; exact E).
    cbn [map concat]. now rewrite fold_left_app.
  - unfold sheet_names at 1. rewrite Esplit. apply slice_mid.
  - unfold dcells. destruct (w_desc o) eqn:Ed.
    + unfold sheet_descs at 1. rewrite Esplit, <- Wd, hbody_length, <- (dbody_length its) by assumption. apply slice_mid.
    + rewrite slice_repeat by (unfold sheet_names, hdr; rewrite Esplit, !app_length; cbn [length fst snd]; lia).
      rewrite hbody_length by assumption. change (S (sumnv its)) with (1 + sumnv its)%nat.
      now rewrite Nat.add_comm, repeat_app.
  - intros r j Hr Hj.
    unfold cell_at, sheet_data at 1. rewrite Esplit, <- (Wdata r), app_nth2_plus. apply app_nth1.
    rewrite datarow_length by assumption. exact Hj.
Qed.

Theorem import_export_blocks total (bl : list blockT) : Forall (b_ok total) bl ->
  import A parse_period parse_val (w_desc o) (hcat_all (map (bgrid total) bl))
  = Ok (fold_left (fun d q => dset A d (fst q) (snd q)) (concat (map imported bl)) []).
Proof.
  intros Hok. destruct bl as [|b r] eqn:E; [reflexivity|]. rewrite grid_shape by assumption. rewrite <- E in *.
  assert (Eblocks : blocks_of (sheet_names bl) = blocks_from bl 0) by apply (scan_marks total bl Hok 0 None).
  pose proof (import_blocks_fold total bl Hok bl [] [] eq_refl) as Hfold. cbn [sheet_names flat_map length] in Hfold.
  unfold import. destruct (w_desc o); cbn [app]; rewrite Eblocks; exact Hfold.
Qed.

(* set_data writes the block's frequency unless trimming leaves nothing, which resets the series *)
Lemma imp_series_freq f ps (s : series) :
  s_freq (imp_series f ps s) = match s_start (imp_series f ps s) with Some _ => f | None => 0 end.
Proof.
  unfold imp_series, set_data. destruct ps as [|p0 pr]; [reflexivity|].
  unfold build, trim. cbn [empty_series s_start s_freq s_nv s_data].
  destruct (drop_leading A _) as [m r1]. now destruct (rev (snd (drop_leading A (rev r1)))).
Qed.

Lemma imp_series_spec f ps (s : series) : WF A s ->
  let s' := imp_series f ps s in
  WF A s' /\ Trimmed A s' /\ s_nv s' = s_nv s /\
  (forall t, row_at A s' t = if in_dec Z.eq_dec t ps then map rnd (row_at A s t) else missrow A (s_nv s)) /\
  (s_start s' <> None -> s_freq s' = f).
Proof.
  intros Hwf s'. unfold s'. split; [|split; [|split; [|split]]]; unfold imp_series.
  - exact (set_data_WF A miss_law f (empty_series A (s_nv s)) ps _ (empty_WF A _)).
  - exact (set_data_Trimmed A miss_law f (empty_series A (s_nv s)) ps _ None (empty_WF A _) (or_intror eq_refl)).
  - exact (set_data_nv A f (empty_series A (s_nv s)) ps _).
  - intros t. rewrite (row_at_set_data A miss_law) by apply empty_WF.
    destruct (in_dec Z.eq_dec t ps) as [Hin|Hout].
    + rewrite (last_assoc_map A t ps (fun u => map rnd (row_at A s u))) by assumption.
      cbn [empty_series s_nv]. apply bcast_row_id. rewrite map_length. now apply row_at_length.
    + rewrite last_assoc_notin by assumption. reflexivity.
  - fold (imp_series f ps s). rewrite imp_series_freq. now destruct (s_start (imp_series f ps s)).
Qed.

Lemma In_series_of_freq (db : databox) f n d s :
  In (n, (d, s)) (series_of_freq A db f) <-> In (n, ISer A d s) db /\ sfreq A s = f.
Proof.
  unfold series_of_freq. rewrite in_flat_map. split.
  - intros ([k it] & Hin & Hx). cbn [fst snd] in Hx. destruct it as [[v|d0 s0]|l]; try destruct Hx.
    destruct (Z.eqb_spec (sfreq A s0) f) as [Ef|]; [|destruct Hx]. destruct Hx as [Hx|[]]. inversion Hx; subst.
    split; [exact Hin|reflexivity].
  - intros [Hin Ef]. exists (n, ISer A d s). split; [assumption|]. cbn [fst snd ISer].
    rewrite Ef, Z.eqb_refl. now left.
Qed.

Definition blocks_of_db (db1 : databox) (fs : list (Z * list Z)) : list blockT :=
  flat_map (fun p => match series_of_freq A db1 (fst p) with [] => [] | its => [(fst p, snd p, its)] end) fs.

Lemma export_as_blocks (db1 : databox) total fs :
  flat_map (fun p => match series_of_freq A db1 (fst p) with
                     | [] => []
                     | its => [block_grid A fmt_period fmt_val rnd o total (fst p) (snd p) its]
                     end) fs
  = map (bgrid total) (blocks_of_db db1 fs).
Proof.
  induction fs as [|p fs IH]; [reflexivity|]. unfold blocks_of_db in *. cbn [flat_map]. rewrite map_app, IH. f_equal.
  now destruct (series_of_freq A db1 (fst p)).
Qed.

Lemma In_blocks (db1 : databox) fs (b : blockT) :
  In b (blocks_of_db db1 fs) <->
  In (fst b) fs /\ snd b = series_of_freq A db1 (fst (fst b)) /\ snd b <> [].
Proof.
  unfold blocks_of_db. rewrite in_flat_map. split.
  - intros (p & Hp & Hb). destruct (series_of_freq A db1 (fst p)) as [|x r] eqn:E; [destruct Hb|].
    destruct Hb as [<-|[]]. cbn [fst snd]. rewrite <- surjective_pairing. rewrite E. repeat split; [assumption|discriminate].
  - intros (Hp & Hs & Hne). exists (fst b). split; [assumption|].
    destruct b as [[f ps] its]. cbn [fst snd] in *. rewrite <- Hs. destruct its; [contradiction|now left].
Qed.

(* the series of the blocks: the series of the databox whose frequency has an entry in the table *)
Lemma In_blocks_item (db1 : databox) fs f ps its n d s : ND A db1 ->
  In (f, ps, its) (blocks_of_db db1 fs) /\ In (n, (d, s)) its <->
  dget A db1 n = Some (ISer A d s) /\ sfreq A s = f /\ In (f, ps) fs /\ its = series_of_freq A db1 f.
Proof.
  intros Hnd. split.
  - intros (Hb & Hin). apply In_blocks in Hb as (Hf & Hits & _). cbn [fst snd] in *. subst its.
    apply In_series_of_freq in Hin as [Hin Ef]. apply (In_db_dget A db1 n _ Hnd) in Hin. now repeat split.
  - intros (Hget & Ef & Hf & ->). apply (In_db_dget A db1 n _ Hnd) in Hget.
    assert (Hs : In (n, (d, s)) (series_of_freq A db1 f)) by now apply In_series_of_freq.
    split; [|exact Hs]. apply In_blocks. cbn [fst snd]. repeat split; try assumption. intros E. now rewrite E in Hs.
Qed.

Lemma total_rows_ge (fs : list (Z * list Z)) p : In p fs -> (length (snd p) <= total_rows fs)%nat.
Proof.
  unfold total_rows. rewrite <- (fold_left_rev_right (fun (q : Z * list Z) m => Nat.max m (length (snd q)))).
  intros H. apply in_rev in H. induction (rev fs) as [|x r IH]; [destruct H|]. cbn [fold_right].
  destruct H as [->|H]; [|specialize (IH H)]; lia.
Qed.

Lemma blocks_ok (db1 : databox) fs : ND A db1 ->
  (forall n d s ps, dget A db1 n = Some (ISer A d s) -> In (sfreq A s, ps) fs ->
     good_name n /\ WF A s /\ (1 <= s_nv s)%nat /\ ps <> [] /\
     is_start (mark_of_freq (sfreq A s)) = Some (sfreq A s)) ->
  Forall (b_ok (total_rows fs)) (blocks_of_db db1 fs).
Proof.
  intros Hnd Hgood. apply Forall_forall. intros [[f ps] its] Hb.
  assert (Hall : forall p, In p its ->
            good_name (fst p) /\ WF A (snd (snd p)) /\ (1 <= s_nv (snd (snd p)))%nat /\ ps <> [] /\
            is_start (mark_of_freq f) = Some f).
  { intros [n [d s]] Hp. destruct (proj1 (In_blocks_item db1 fs f ps its n d s Hnd) (conj Hb Hp)) as (Hget & <- & Hf & _).
    now apply (Hgood n d s ps). }
  apply In_blocks in Hb as (Hf & _ & Hne). cbn [fst snd] in *.
  split; [|destruct its as [|p0 r0]; [contradiction|]; destruct (Hall p0 (or_introl eq_refl)) as (_ & _ & _ & H4 & H5);
           split; [exact H4|split; [exact (total_rows_ge fs _ Hf)|exact H5]]].
  apply Forall_forall. intros p Hp. destruct (Hall p Hp). tauto.
Qed.

Lemma In_imported (db1 : databox) fs n it : ND A db1 ->
  In (n, it) (concat (map imported (blocks_of_db db1 fs))) <->
  exists d s ps, dget A db1 n = Some (ISer A d s) /\ In (sfreq A s, ps) fs /\
    it = ISer A (kept_desc A ps (imp_series (sfreq A s) ps s) (if w_desc o then d else ""%string)) (imp_series (sfreq A s) ps s).
Proof.
  intros Hnd. rewrite in_concat. split.
  - intros (l & Hl & Hin). apply in_map_iff in Hl as ([[f ps] its] & <- & Hb).
    apply in_map_iff in Hin as ([n' [d s]] & E & Hp). cbn [fst snd] in E. inversion E; subst n'.
    destruct (proj1 (In_blocks_item db1 fs f ps its n d s Hnd) (conj Hb Hp)) as (Hget & <- & Hf & _).
    now exists d, s, ps.
  - intros (d & s & ps & Hget & Hf & ->).
    destruct (proj2 (In_blocks_item db1 fs _ ps _ n d s Hnd) (conj Hget (conj eq_refl (conj Hf eq_refl)))) as [Hb Hp].
    eexists. split; [apply in_map; exact Hb|]. apply in_map_iff. now exists (n, (d, s)).
Qed.

Lemma ND_shallow (db : databox) s t : ND A (d_shallow A db s t).
Proof.
  unfold d_shallow.
  assert (G : forall l acc, ND A acc ->
    ND A (fold_left (fun acc p => match dget A db (fst p) with Some v => dset A acc (snd p) v | None => acc end) l acc)).
  { induction l as [|x r IH]; intros acc H; cbn [fold_left]; [assumption|].
    apply IH. destruct (dget A db (fst x)); [now apply ND_dset|assumption]. }
  apply G. constructor.
Qed.

Theorem csv_roundtrip (db : databox) :
  let db1 := selected A db o in
  let fs := resolve_fspan A db1 (w_fspan o) in
  NoDup (map fst (w_fspan o)) ->
  (forall n d s ps, dget A db1 n = Some (ISer A d s) -> In (sfreq A s, ps) fs ->
     good_name n /\ WF A s /\ (1 <= s_nv s)%nat /\ ps <> [] /\
     is_start (mark_of_freq (sfreq A s)) = Some (sfreq A s)) ->
  exists db', import A parse_period parse_val (w_desc o) (export A fmt_period fmt_val rnd db o) = Ok db' /\
    (forall n d s ps, dget A db1 n = Some (ISer A d s) -> In (sfreq A s, ps) fs ->
       let s' := imp_series (sfreq A s) ps s in
       dget A db' n = Some (ISer A (kept_desc A ps s' (if w_desc o then d else ""%string)) s')) /\
    (forall n, (forall d s ps, dget A db1 n = Some (ISer A d s) -> ~ In (sfreq A s, ps) fs) -> dget A db' n = None).
Proof.
  intros db1 fs Hfs Hgood.
  assert (Hnd1 : ND A db1) by apply ND_shallow.
  assert (Hfs' : NoDup (map fst fs)) by (unfold fs, resolve_fspan; now rewrite map_map).
  unfold export. cbv zeta. fold db1 fs. rewrite export_as_blocks. set (bl := blocks_of_db db1 fs).
  exists (fold_left (fun d q => dset A d (fst q) (snd q)) (concat (map imported bl)) []). split; [|split].
  - apply import_export_blocks. now apply blocks_ok.
  - (* a name has one series and a frequency one entry of the table, hence one imported item *)
    intros n d s ps Hget Hin. apply dget_fold_dset.
    + apply In_imported; [assumption|]. now exists d, s, ps.
    + intros it' Hit'. apply In_imported in Hit' as (d' & s2 & ps' & Hget' & Hin' & ->); [|assumption].
      rewrite Hget in Hget'. inversion Hget'; subst d' s2.
      now rewrite (NoDup_fst_inj fs _ ps' ps Hfs' Hin' Hin).
  - intros n Hn. rewrite (proj1 (dget_fold_dset A _ [] n)); [reflexivity|].
    intros Hx. apply in_map_iff in Hx as ([k it] & <- & Hx).
    apply In_imported in Hx as (d & s & ps & Hget & Hin & _); [|assumption]. exact (Hn d s ps Hget Hin).
Qed.

Lemma missrow_all_miss n : is_miss A (miss A) = true -> all_miss A (missrow A n) = true.
Proof. intros Hm. unfold all_miss, missrow. apply forallb_forall. intros x Hx. apply repeat_spec in Hx. now subst. Qed.

(* a row with an observation lies inside the stored span *)
Lemma observed_in_span (s : series) t : is_miss A (miss A) = true -> all_miss A (row_at A s t) = false ->
  exists st, s_start s = Some st /\ st <= t < st + Z.of_nat (length (s_data s)).
Proof.
  intros Hm H. unfold row_at in H. destruct (s_start s) as [st|]; [|now rewrite missrow_all_miss in H].
  exists st. split; [reflexivity|]. destruct (Z.ltb_spec t st); [now rewrite missrow_all_miss in H|].
  split; [assumption|]. apply Z.nle_gt. intros Hr. rewrite nth_overflow, missrow_all_miss in H by (assumption || lia). discriminate.
Qed.

Lemma row_at_first (s : series) st : s_start s = Some st -> s_data s <> [] -> row_at A s st = hd [] (s_data s).
Proof.
  intros Es Hne. unfold row_at. rewrite Es, Z.ltb_irrefl, Z.sub_diag. simpl.
  destruct (s_data s); [contradiction|reflexivity].
Qed.

Lemma row_at_last (s : series) st : s_start s = Some st -> s_data s <> [] ->
  row_at A s (st + Z.of_nat (length (s_data s)) - 1) = last (s_data s) [].
Proof.
  intros Es Hne. unfold row_at. rewrite Es. destruct (exists_last Hne) as (l' & x & ->).
  rewrite app_length, last_last. cbn [length]. destruct (Z.ltb_spec (st + Z.of_nat (length l' + 1) - 1) st); [lia|].
  replace (Z.to_nat (st + Z.of_nat (length l' + 1) - 1 - st)) with (length l' + 0)%nat by lia. now rewrite app_nth2_plus.
Qed.

(* the first and the last period of a trimmed series with observations lie in the span of any series that has the
   same rows *)
Lemma trimmed_ends_in_span (s1 s2 : series) a : is_miss A (miss A) = true -> Trimmed A s1 -> s_start s1 = Some a ->
  (forall t, row_at A s1 t = row_at A s2 t) ->
  exists b, s_start s2 = Some b /\ b <= a /\
            a + Z.of_nat (length (s_data s1)) <= b + Z.of_nat (length (s_data s2)).
Proof.
  unfold Trimmed. intros Hm T1 E1 Hrow. rewrite E1 in T1. destruct T1 as (N1 & F1 & L1).
  rewrite <- (row_at_first s1 a E1 N1), Hrow in F1. rewrite <- (row_at_last s1 a E1 N1), Hrow in L1.
  apply observed_in_span in F1 as (b & E2 & Hb); [|assumption]. apply observed_in_span in L1 as (b' & E2' & Hb'); [|assumption].
  rewrite E2 in E2'. inversion E2'; subst b'. exists b. split; [assumption|]. lia.
Qed.

(* a trimmed, well-formed series is determined by its period -> row map *)
Lemma trimmed_ext (s1 s2 : series) : is_miss A (miss A) = true -> WF A s1 -> WF A s2 -> Trimmed A s1 -> Trimmed A s2 ->
  (forall t, row_at A s1 t = row_at A s2 t) -> s_start s1 = s_start s2 /\ s_data s1 = s_data s2.
Proof.
  intros Hm W1 W2 T1 T2 Hrow.
  destruct (s_start s1) as [a|] eqn:E1; destruct (s_start s2) as [b|] eqn:E2.
  - destruct (trimmed_ends_in_span s1 s2 a Hm T1 E1 Hrow) as (b' & Eb & H1 & H2).
    destruct (trimmed_ends_in_span s2 s1 b Hm T2 E2 (fun t => eq_sym (Hrow t))) as (a' & Ea & H3 & H4).
    rewrite E2 in Eb. rewrite E1 in Ea. inversion Eb; inversion Ea; subst a' b'.
    assert (a = b) by lia. subst b. split; [reflexivity|].
    rewrite (data_as_map A s1 a), (data_as_map A s2 a) by assumption.
    replace (length (s_data s2)) with (length (s_data s1)) by lia. apply map_ext. exact Hrow.
  - destruct (trimmed_ends_in_span s1 s2 a Hm T1 E1 Hrow) as (b & Eb & _). congruence.
  - destruct (trimmed_ends_in_span s2 s1 b Hm T2 E2 (fun t => eq_sym (Hrow t))) as (a & Ea & _). congruence.
  - unfold Trimmed in *. rewrite E1 in T1. rewrite E2 in T2. split; [reflexivity|]. now rewrite T1, T2.
Qed.

Lemma series_eq (a b : series) :
  s_freq a = s_freq b -> s_start a = s_start b -> s_nv a = s_nv b -> s_data a = s_data b -> a = b.
Proof. destruct a, b; cbn; intros; subst; reflexivity. Qed.

Definition rounded (s : series) : series := mkSeries (s_freq s) (s_start s) (s_nv s) (map (map rnd) (s_data s)).

Lemma rounded_WF (s : series) : WF A s -> WF A (rounded s).
Proof. exact (map_notrim_WF A rnd s). Qed.

Lemma rnd_missrow n : is_miss A (miss A) = true -> (forall x, is_miss A (rnd x) = is_miss A x) ->
  map rnd (missrow A n) = missrow A n.
Proof.
  intros Hm Hrnd. unfold missrow. induction n as [|n IH]; simpl; [reflexivity|].
  now rewrite IH, (miss_law (rnd (miss A))) by now rewrite Hrnd.
Qed.

Lemma row_at_rounded (s : series) t : is_miss A (miss A) = true -> (forall x, is_miss A (rnd x) = is_miss A x) ->
  row_at A (rounded s) t = map rnd (row_at A s t).
Proof.
  intros Hm Hrnd. unfold row_at. cbn [rounded s_start s_data s_nv].
  destruct (s_start s) as [st|]; [|now rewrite rnd_missrow].
  destruct (t <? st); [now rewrite rnd_missrow|]. rewrite <- (rnd_missrow (s_nv s) Hm Hrnd) at 1. apply map_nth.
Qed.

Lemma rounded_Trimmed (s : series) : (forall x, is_miss A (rnd x) = is_miss A x) -> Trimmed A s -> Trimmed A (rounded s).
Proof.
  intros Hrnd. assert (Ham : forall r, all_miss A (map rnd r) = all_miss A r).
  { intros r. unfold all_miss. induction r as [|x r IH]; simpl; [reflexivity|]. now rewrite Hrnd, IH. }
  unfold Trimmed. cbn [rounded s_start s_data]. destruct (s_start s); [|now intros ->].
  intros (N & F & L). split; [intros H; apply map_eq_nil in H; contradiction|]. split.
  - destruct (s_data s) as [|r0 rr]; [contradiction|]. cbn [map hd] in *. now rewrite Ham.
  - destruct (exists_last N) as (l' & x & E). rewrite E in *. rewrite map_app. cbn [map]. rewrite last_last in *. now rewrite Ham.
Qed.

Theorem imp_series_identity : is_miss A (miss A) = true -> forall ps (s : series) st,
  (forall x, is_miss A (rnd x) = is_miss A x) ->
  WF A s -> Trimmed A s -> s_start s = Some st ->
  (forall t, st <= t < st + Z.of_nat (length (s_data s)) -> In t ps) ->
  imp_series (s_freq s) ps s = rounded s.
Proof.
  intros Hm ps s st Hrnd Hwf Htr Es Hcover.
  destruct (imp_series_spec (s_freq s) ps s Hwf) as (W1 & T1 & Nv1 & R1 & F1).
  destruct (trimmed_ext _ (rounded s) Hm W1 (rounded_WF s Hwf) T1 (rounded_Trimmed s Hrnd Htr)) as [Hst Hdat].
  { intros t. rewrite R1, row_at_rounded by assumption. destruct (in_dec Z.eq_dec t ps) as [Hin|Hout]; [reflexivity|].
    (* a period that was not exported lies outside the span of s *)
    rewrite (row_at_outside A s t st (st + Z.of_nat (length (s_data s)) - 1) Es), (rnd_missrow _ Hm Hrnd); [reflexivity| |].
    - unfold s_end. now rewrite Es.
    - destruct (Z.lt_ge_cases t st); [now left|]. destruct (Z.lt_ge_cases (st + Z.of_nat (length (s_data s)) - 1) t); [now right|].
      exfalso. apply Hout, Hcover. lia. }
  apply series_eq; try assumption. apply F1. rewrite Hst. cbn [rounded s_start]. now rewrite Es.
Qed.

(* the composition, for any frequency-span option whose periods cover every selected series: every series comes
   back under its name, with its description and as itself with rounded values; nothing else comes back *)
Theorem csv_lossless : is_miss A (miss A) = true -> forall db : databox,
  let db1 := selected A db o in
  let fs := resolve_fspan A db1 (w_fspan o) in
  (forall x, is_miss A (rnd x) = is_miss A x) ->
  NoDup (map fst (w_fspan o)) ->
  (forall n d s, dget A db1 n = Some (ISer A d s) ->
     good_name n /\ WF A s /\ Trimmed A s /\ (1 <= s_nv s)%nat /\
     is_start (mark_of_freq (s_freq s)) = Some (s_freq s) /\
     exists st ps, s_start s = Some st /\ In (s_freq s, ps) fs /\
                   forall t, st <= t < st + Z.of_nat (length (s_data s)) -> In t ps) ->
  exists db', import A parse_period parse_val (w_desc o) (export A fmt_period fmt_val rnd db o) = Ok db' /\
    forall n, dget A db' n = match dget A db1 n with
                             | Some (INon (ESer d s)) => Some (ISer A (if w_desc o then d else ""%string) (rounded s))
                             | _ => None
                             end.
Proof.
  intros Hm db db1 fs Hrnd Hfs Hgood.
  assert (Hfs' : NoDup (map fst fs)) by (unfold fs, resolve_fspan; now rewrite map_map).
  destruct (csv_roundtrip db Hfs) as (db' & Himp & H1 & H2).
  - intros n d s ps Hget Hin. fold db1 fs in Hget, Hin.
    destruct (Hgood n d s Hget) as (G1 & G2 & G3 & G4 & G5 & st & ps' & Es & Hin' & Hc).
    assert (Ef : sfreq A s = s_freq s) by (unfold sfreq; now rewrite Es). rewrite Ef in *.
    rewrite (NoDup_fst_inj fs _ ps ps' Hfs' Hin Hin'). repeat (split; [assumption|]). split; [|assumption].
    (* the periods contain the start of the series: they are not empty *)
    intros E. rewrite E in Hc. apply (Hc st). unfold Trimmed in G3. rewrite Es in G3. destruct G3 as (N & _).
    destruct (s_data s); [contradiction|simpl; lia].
  - exists db'. split; [exact Himp|]. intros n. fold db1 fs in H1, H2.
    destruct (dget A db1 n) as [[[v|d s]|l]|] eqn:Hget;
      try (apply H2; intros d0 s0 ps0 E; rewrite Hget in E; discriminate E).
    destruct (Hgood n d s Hget) as (_ & G2 & G3 & _ & _ & st & ps & Es & Hin & Hc).
    assert (Ef : sfreq A s = s_freq s) by (unfold sfreq; now rewrite Es).
    rewrite (H1 n d s ps Hget) by now rewrite Ef. cbv zeta. rewrite Ef, (imp_series_identity Hm ps s st Hrnd G2 G3 Es Hc).
    f_equal. unfold ISer. f_equal. f_equal. unfold kept_desc, rounded. cbn [s_start]. rewrite Es.
    now destruct ps.
Qed.

End CsvProofs.

(* the frequency marks written by the export are recognised by the import *)
Lemma marks_roundtrip f : In f (map snd freq_members) -> is_start (mark_of_freq f) = Some f.
Proof.
  unfold freq_members. cbn [map snd In]. intros H. repeat (destruct H as [<-|H]; [vm_compute; reflexivity|]). destruct H.
Qed.

(* a concrete instance: non-vacuity, and the stated exceptions are real *)
From Verif Require Import lib.ArithOptZ.

Module CsvExamples.
Definition fp (f t : Z) : string := if t =? 0 then "t0" else if t =? 1 then "t1" else "t2".
Definition pp (f : Z) (c : string) : option Z :=
  if String.eqb c "t0" then Some 0 else if String.eqb c "t1" then Some 1 else if String.eqb c "t2" then Some 2 else None.
Definition fv (x : option Z) : string := match x with Some 1 => "1" | Some 2 => "2" | Some _ => "3" | None => "?" end.
Definition pv (c : string) : option Z :=
  if String.eqb c "1" then Some 1 else if String.eqb c "2" then Some 2 else if String.eqb c "3" then Some 3 else None.
Definition opts (d : bool) : wopts := mkWopts None default_fspan d "".
Definition ser (rows : list (list (option Z))) : series OZArith := mkSeries (A:=OZArith) 4 (Some 0) 1%nat rows.
Definition roundtrip (d : bool) (db : databox OZArith) : res (databox OZArith) :=
  import OZArith pp pv d (export OZArith fp fv (fun x => x) db (opts d)).

Example roundtrip_ok :
  roundtrip true [("a"%string, ISer OZArith "about a" (ser [[Some 1]; [None]; [Some 2]]));
                  ("k"%string, INon (@EScal OZArith (Some 3)))]
  = Ok [("a"%string, ISer OZArith "about a" (ser [[Some 1]; [None]; [Some 2]]))].
Proof. reflexivity. Qed.

(* a name starting with "__" ends its block: the series (and its neighbours) are not read back *)
Example dunder_name_lost :
  roundtrip false [("__x"%string, ISer OZArith "" (ser [[Some 1]])); ("b"%string, ISer OZArith "" (ser [[Some 2]]))] = Ok [].
Proof. reflexivity. Qed.

(* a name "*" is read as a continuation column, an empty name is skipped *)
Example star_name_lost :
  roundtrip false [("*"%string, ISer OZArith "" (ser [[Some 1]])); (""%string, ISer OZArith "" (ser [[Some 1]]));
                   ("b"%string, ISer OZArith "" (ser [[Some 2]]))]
  = Ok [("b"%string, ISer OZArith "" (ser [[Some 2]]))].
Proof. reflexivity. Qed.

(* a series without any observation comes back empty: no span, no frequency, no description *)
Example all_missing_comes_back_empty :
  roundtrip true [("a"%string, ISer OZArith "about a" (ser [[None]; [None]])); ("b"%string, ISer OZArith "about b" (ser [[Some 2]]))]
  = Ok [("a"%string, ISer OZArith "" (empty_series OZArith 1)); ("b"%string, ISer OZArith "about b" (ser [[Some 2]]))].
Proof. reflexivity. Qed.

(* a sheet holding nothing but empty series has no data row: the series come back empty, with their names, variant
   counts and descriptions (the import of such a sheet is the subject of fixes/C19_2) *)
Example only_empty_series_roundtrip :
  roundtrip true [("e"%string, ISer OZArith "about e" (empty_series OZArith 1)); ("e2"%string, ISer OZArith "" (empty_series OZArith 3))]
  = Ok [("e"%string, ISer OZArith "about e" (empty_series OZArith 1)); ("e2"%string, ISer OZArith "" (empty_series OZArith 3))].
Proof. reflexivity. Qed.
End CsvExamples.

Section CsvLossless.
Variable A : Arith.
Notation V := (car A).
Notation series := (series A).
Notation databox := (databox A).
Variable o : wopts.

(* Databox.get_span_by_frequency covers every series of the frequency *)
Lemma span_covers_series (db1 : databox) f n d (s : series) st t :
  f <> -1 -> In (n, (d, s)) (series_of_freq A db1 f) -> s_start s = Some st ->
  st <= t < st + Z.of_nat (length (s_data s)) -> In t (span_of_freq A db1 f).
Proof.
  intros Hf Hin Es Ht. unfold span_of_freq. destruct (Z.eqb_spec f (-1)); [contradiction|].
  destruct (series_of_freq A db1 f) as [|[nm0 [d0 s0]] r] eqn:E; [destruct Hin|].
  cbn [snd fst]. apply In_zrange.
  set (starts := map (fun p : string * (string * series) => match s_start (snd (snd p)) with Some x => x | None => 0 end) r).
  set (ends := map (fun p : string * (string * series) => match s_end A (snd (snd p)) with Some x => x | None => 0 end) r).
  pose proof (minl_le (match s_start s0 with Some x => x | None => 0 end) starts) as [M1 M2].
  pose proof (maxl_ge (match s_end A s0 with Some x => x | None => 0 end) ends) as [X1 X2].
  destruct Hin as [Eh|Hin].
  - inversion Eh; subst. unfold s_end in *. rewrite Es in *. lia.
  - assert (H1 : In st starts).
    { unfold starts. apply in_map_iff. exists (n, (d, s)). cbn [snd]. rewrite Es. split; [reflexivity|assumption]. }
    assert (H2 : In (st + Z.of_nat (length (s_data s)) - 1) ends).
    { unfold ends. apply in_map_iff. exists (n, (d, s)). cbn [snd]. unfold s_end. rewrite Es. split; [reflexivity|assumption]. }
    specialize (M2 _ H1). specialize (X2 _ H2). lia.
Qed.

Lemma resolve_default_fspan (db1 : databox) :
  resolve_fspan A db1 default_fspan = map (fun f => (f, span_of_freq A db1 f)) default_freq_order.
Proof. unfold resolve_fspan, default_fspan. now rewrite map_map. Qed.

Lemma default_order_facts :
  NoDup default_freq_order /\ forall f, In f default_freq_order -> In f (map snd freq_members).
Proof.
  unfold default_freq_order, freq_members. cbn [map snd In]. split; [repeat constructor; cbn [In]; lia|intros f; lia].
Qed.

(* under the default frequency span a dated, trimmed series is exported on the span of its frequency, which covers it *)
Lemma default_span_of_series (db1 : databox) n d (s : series) : ND A db1 -> w_fspan o = default_fspan ->
  dget A db1 n = Some (ISer A d s) -> s_start s <> None ->
  In (s_freq s) default_freq_order -> s_freq s <> -1 ->
  let ps := span_of_freq A db1 (sfreq A s) in
  exists st, s_start s = Some st /\ sfreq A s = s_freq s /\ In (sfreq A s, ps) (resolve_fspan A db1 (w_fspan o)) /\
    forall t, st <= t < st + Z.of_nat (length (s_data s)) -> In t ps.
Proof.
  intros Hnd Hfs Hget Hst Hord Hf ps. destruct (s_start s) as [st|] eqn:Es; [|contradiction].
  assert (Ef : sfreq A s = s_freq s) by (unfold sfreq; now rewrite Es).
  exists st. repeat split; try assumption.
  - rewrite Hfs, resolve_default_fspan. apply in_map_iff. exists (sfreq A s). split; [reflexivity|now rewrite Ef].
  - intros t Ht. apply (span_covers_series db1 _ n d s st t); try assumption; [now rewrite Ef|].
    apply In_series_of_freq. split; [now apply In_db_dget|reflexivity].
Qed.

End CsvLossless.
