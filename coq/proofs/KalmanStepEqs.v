(* One forward step of the Kalman model (model/Kalman.v: kf_step) as equations between the fields of its
   result, over the abstract matrix interface.  Proofs about a step start from these equations, so that
   none of them unfolds kf_step on a concrete carrier. *)
From Coq Require Import List Bool Arith.
From Verif Require Import lib.MatOps model.Kalman.
Set Implicit Arguments.

Section StepEqs.
Variable M : MatOps.
Local Notation "A *m B" := (mmul M A B) (at level 40, left associativity).
Local Notation "A +m B" := (madd M A B) (at level 50, left associativity).
Local Notation "A -m B" := (msub M A B) (at level 50, left associativity).
Local Notation "A ^T" := (mtr M A) (at level 30, format "A ^T").
Variables n nw : nat.
Implicit Types (a : mx M n 1) (Q : mx M n n) (p : period M n nw).

(* each field in terms of the inputs and of the fields before it *)
Record step_eqs a Q p (f : frec p) : Prop := StepEqs {
  se_Q0 : f_Q0 f = symmetrize (p_T p *m Q *m (p_T p)^T +m P_cov_u_Pt (p_us p));
  se_F : f_F f = symmetrize (if 0 <? p_ny p
                             then p_Z p *m f_Q0 f *m (p_Z p)^T +m p_H p *m p_cov_w p *m (p_H p)^T
                             else mzero M _ _);
  se_Fi : f_Fi f = symmetrize (if 0 <? p_ny p then minv M (f_F f) else mzero M _ _);
  se_a0 : f_a0 f = let a0 := p_T p *m a +m p_K p +m P_u0 (p_us p) in
                   match p_v p with Some v => a0 +m v | None => a0 end;
  se_y0 : f_y0 f = p_Z p *m f_a0 f +m p_D p +m p_H p *m p_w0 p;
  se_Zt_Fi : f_Zt_Fi f = (p_Z p)^T *m f_Fi f;
  se_G : f_G f = f_Q0 f *m f_Zt_Fi f;
  se_Q1 : f_Q1 f = symmetrize (f_Q0 f -m f_G f *m p_Z p *m f_Q0 f);
  se_pe : f_pe f = p_y p -m f_y0 f;
  se_a1 : f_a1 f = f_a0 f +m f_G f *m f_pe f;
  se_P_cov_u : f_P_cov_u f = P_cov_u (p_us p);
  se_H_cov_w : f_H_cov_w f = p_H p *m p_cov_w p
}.

Lemma kf_step_eqs a Q p : step_eqs a Q (kf_step a Q p).
Proof. split; reflexivity. Qed.

Lemma step_eqs_inj a Q p (f f' : frec p) : step_eqs a Q f -> step_eqs a Q f' -> f = f'.
Proof.
destruct f, f'; intros [] []; simpl in *.
repeat match goal with E : _ = _ |- _ => rewrite E; clear E end.
reflexivity.
Qed.

End StepEqs.

(* the carrier cannot be inferred from a MathComp matrix *)
Arguments step_eqs M [n nw] a Q [p] f.
Arguments kf_step_eqs M [n nw] a Q p.
Arguments step_eqs_inj M [n nw a Q p f f'].
