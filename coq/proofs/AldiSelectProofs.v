(* C02: column selection of the steady Jacobian under a steady plan; the cached terminal rows. *)
From Coq Require Import ZArith List Bool Arith Lia.
From Verif Require Import model.AldiSelect.
Import ListNotations.

(* ---- (a) column selection ------------------------------------------------------------------------- *)

Lemma select_app : forall {T} (m1 m2 : list bool) (l1 l2 : list T),
  length m1 = length l1 -> select (m1 ++ m2) (l1 ++ l2) = select m1 l1 ++ select m2 l2.
Proof.
  intros T m1. induction m1 as [|b m IH]; intros m2 l1 l2 H; destruct l1 as [|x r]; simpl in H; try discriminate.
  - reflexivity.
  - cbn [app select]. injection H as H. rewrite (IH m2 r l2 H). destruct b; reflexivity.
Qed.

Lemma select_map : forall {T U} (f : T -> U) (m : list bool) (l : list T),
  select m (map f l) = map f (select m l).
Proof.
  intros T U f m. induction m as [|b m IH]; intros [|x r]; cbn [map select]; try reflexivity.
  rewrite IH. destruct b; reflexivity.
Qed.

(* the labels of the columns kept are exactly the unknowns, in the order of the vector of unknowns *)
Theorem reduced_labels : forall (wrt : list Z) (ml mc : list bool),
  length ml = length wrt ->
  select (ml ++ mc) (full_labels wrt) = unknown_labels wrt ml mc.
Proof.
  intros wrt ml mc H. unfold full_labels, unknown_labels.
  rewrite select_app by (rewrite map_length; exact H).
  rewrite !select_map. reflexivity.
Qed.

(* FOR EVERY plan (every pair of subsets): if entry c of a row of the full Jacobian is the derivative d(label c)
   w.r.t. the c-th full label, then entry j of the reduced row is the derivative w.r.t. unknown j *)
Theorem reduced_row_is_unknowns : forall {V} (d : label -> V) (wrt : list Z) (ml mc : list bool),
  length ml = length wrt ->
  reduce_row ml mc (map d (full_labels wrt)) = map d (unknown_labels wrt ml mc).
Proof.
  intros V d wrt ml mc H. unfold reduce_row. rewrite select_map, reduced_labels by exact H. reflexivity.
Qed.


Theorem reduced_jacobian_is_unknowns : forall {V} (d : nat -> label -> V) (wrt : list Z) (ml mc : list bool) (nrows : nat),
  length ml = length wrt ->
  reduce_jacobian ml mc (map (fun r => map (d r) (full_labels wrt)) (seq 0 nrows))
  = map (fun r => map (d r) (unknown_labels wrt ml mc)) (seq 0 nrows).
Proof.
  intros V d wrt ml mc nrows H. unfold reduce_jacobian. rewrite map_map. apply map_ext. intro r.
  apply reduced_row_is_unknowns. exact H.
Qed.

(* the masks built from the plan's two lists have the length of wrt_qids *)
Lemma mask_of_length : forall wrt chosen, length (mask_of wrt chosen) = length wrt.
Proof. intros. unfold mask_of. apply map_length. Qed.


(* integer index vectors: the positions offset by the number of ALL wrt quantities select the same columns *)
Lemma gather_positions_within : forall {V} (post : list V) (d : V) (mask : list bool) (pre l : list V),
  length mask = length l ->
  gather (positions mask (length pre)) (pre ++ l ++ post) d = select mask l.
Proof.
  intros V post d mask. induction mask as [|b m IH]; intros pre l H; destruct l as [|x r]; simpl in H; try discriminate.
  - reflexivity.
  - injection H as H.
    assert (E : gather (positions m (S (length pre))) (pre ++ (x :: r) ++ post) d = select m r).
    { specialize (IH (pre ++ [x]) r H). rewrite app_length in IH. simpl in IH.
      replace (length pre + 1) with (S (length pre)) in IH by lia. rewrite <- app_assoc in IH. exact IH. }
    cbn [positions select]. destruct b.
    + unfold gather in *. cbn [map]. rewrite E. f_equal. rewrite app_nth2 by lia. rewrite Nat.sub_diag. reflexivity.
    + exact E.
Qed.


Example column_selection_nonvacuous :
  reduce_row (mask_of [5;6;7]%Z [6;7]%Z) (mask_of [5;6;7]%Z [5;6]%Z) (full_labels [5;6;7]%Z)
  = [(false, 6%Z); (false, 7%Z); (true, 5%Z); (true, 6%Z)].
Proof. reflexivity. Qed.

(* ---- (b) the cached rows of the terminal map ------------------------------------------------------------ *)

Lemma In_insert_nodup : forall x y l, In x (insert_nodup y l) <-> In x (y :: l).
Proof.
  intros x y l. induction l as [|z r IH]; cbn [insert_nodup]; [ reflexivity | ].
  destruct (Nat.ltb y z); [ reflexivity | ].
  destruct (Nat.eqb_spec y z) as [-> | _].
  - split; [ now right | intros [<- | H]; [ now left | exact H ] ].
  - split.
    + intros [<- | H]; [ right; now left | apply IH in H as [<- | H]; [ now left | right; now right ] ].
    + intros [<- | [<- | H]]; [ right; apply IH; now left | now left | right; apply IH; now right ].
Qed.

Lemma In_sorted_set : forall x l, In x (sorted_set l) <-> In x l.
Proof.
  intros x l. unfold sorted_set. induction l as [|y r IH]; cbn [fold_right]; [ reflexivity | ].
  rewrite In_insert_nodup. simpl. now rewrite IH.
Qed.

(* the structural pattern does not depend on the values stored *)
Theorem coo_rows_structural : forall {V W} (m : coo V) (m' : coo W),
  map (fun e => fst e) m = map (fun e => fst e) m' -> coo_rows m = coo_rows m'.
Proof.
  intros V W m m' H. unfold coo_rows. f_equal.
  replace (map (fun e => fst (fst e)) m) with (map fst (map (fun e => fst e) m)) by (rewrite map_map; reflexivity).
  replace (map (fun e => fst (fst e)) m') with (map fst (map (fun e => fst e) m')) by (rewrite map_map; reflexivity).
  rewrite H. reflexivity.
Qed.


Section TerminateProofs.
Context {V : Type}.
Variable zero : V.
Variable add : V -> V -> V.
Hypothesis add_zero_r : forall x, add x zero = x.

Definition zero_outside (S : list nat) (addm : nat -> nat -> V) : Prop :=
  forall r, ~ In r S -> forall c, addm r c = zero.

Lemma corrected_complete : forall rows pairs regular addm,
  zero_outside rows addm ->
  forall r c, corrected add rows pairs regular addm r c = corrected_all add pairs regular addm r c.
Proof.
  intros rows pairs regular addm Hz r c. unfold corrected, corrected_all.
  destruct (existsb (Nat.eqb r) rows) eqn:E; [reflexivity|].
  destruct (rhs_for pairs c) as [rc|]; [|reflexivity].
  rewrite Hz.
  - rewrite add_zero_r. reflexivity.
  - intro Hin. assert (existsb (Nat.eqb r) rows = true) as X.
    { apply existsb_exists. exists r. split; [exact Hin | apply Nat.eqb_refl]. }
    rewrite X in E. discriminate.
Qed.

(* every call of a whole run (any number of calls, any evaluation points): when the rows cached are the structural
   pattern S (the same at every point) and the correction matrix is zero outside S at every point, each call returns
   the full correction *)
Theorem trun_structural_valid : forall (S : list nat) pairs calls st,
  (st = None \/ st = Some S) ->
  Forall (fun call => fst (fst call) = S /\ zero_outside S (snd call)) calls ->
  Forall2 (fun out call => forall r c, out r c = corrected_all add pairs (snd (fst call)) (snd call) r c)
          (trun add st pairs calls) calls.
Proof.
  intros S pairs calls. induction calls as [|[[rows_now regular] addm] rest IH]; intros st Hst HF.
  - constructor.
  - pose proof (Forall_inv HF) as [Hrows Hz]. pose proof (Forall_inv_tail HF) as HF'. cbn [trun tstep]. simpl in Hrows, Hz.
    assert (Hr : match st with Some r => r | None => rows_now end = S).
    { destruct Hst as [-> | ->]; [exact Hrows | reflexivity]. }
    rewrite Hr. constructor.
    + intros r c. simpl. apply corrected_complete. exact Hz.
    + apply IH; [right; reflexivity | exact HF'].
Qed.
End TerminateProofs.


(* two calls at different points with the structural pattern (non-vacuity of trun_structural_valid) *)
Example trun_structural_nonvacuous :
  let t1 : coo Z := [(0, 0, 0%Z)] in let t2 : coo Z := [(0, 0, 3%Z)] in
  let addm (t : coo Z) : nat -> nat -> Z := fun r c => match t with [(_, _, v)] => if Nat.eqb r 0 && Nat.eqb c 0 then v else 0%Z | _ => 0%Z end in
  let outs := trun Z.add None [(0, 0)] [ (coo_rows t1, (fun _ _ => 0%Z), addm t1); (coo_rows t2, (fun _ _ => 0%Z), addm t2) ] in
  coo_rows t1 = coo_rows t2 /\ map (fun o => o 0 0) outs = [0%Z; 3%Z].
Proof. vm_compute. split; reflexivity. Qed.
