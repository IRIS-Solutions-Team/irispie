(* C18: the data layer of model/RedVar.v (lag stacking and complete-column mask), for any value type. *)
From Coq Require Import List Arith Lia Sorted.
From Verif Require Import model.RedVar.
Import ListNotations.

Lemma true_positions_spec (mask : list bool) (i0 j : nat) :
  In j (true_positions i0 mask) <-> i0 <= j /\ j - i0 < length mask /\ nth (j - i0) mask false = true.
Proof.
revert i0; induction mask as [|b mask IH]; intros i0; simpl.
- split; [tauto | intros (_ & H & _); lia].
- destruct b; simpl; rewrite ?IH.
  + split.
    * intros [<- | (H1 & H2 & H3)]; [rewrite Nat.sub_diag; repeat split; lia|].
      replace (j - i0) with (S (j - S i0)) by lia; repeat split; try lia; exact H3.
    * intros (H1 & H2 & H3); destruct (Nat.eq_dec i0 j) as [->|Hne]; [left; reflexivity | right].
      replace (j - i0) with (S (j - S i0)) in * by lia; repeat split; try lia; exact H3.
  + split.
    * intros (H1 & H2 & H3); replace (j - i0) with (S (j - S i0)) by lia; repeat split; try lia; exact H3.
    * intros (H1 & H2 & H3); destruct (Nat.eq_dec i0 j) as [->|Hne].
      { rewrite Nat.sub_diag in H3; discriminate. }
      replace (j - i0) with (S (j - S i0)) in * by lia; repeat split; try lia; exact H3.
Qed.

Lemma true_positions_lower (mask : list bool) (i0 : nat) : Forall (fun j => i0 <= j) (true_positions i0 mask).
Proof.
apply Forall_forall; intros j Hj; apply true_positions_spec in Hj; tauto.
Qed.

(* fitted positions are listed in strictly increasing order (hence without repetition) *)
Lemma true_positions_sorted (mask : list bool) (i0 : nat) : StronglySorted lt (true_positions i0 mask).
Proof.
revert i0; induction mask as [|b mask IH]; intros i0; simpl; [constructor|].
destruct b; [|apply IH].
constructor; [apply IH|].
eapply Forall_impl; [|apply (true_positions_lower mask (S i0))]; simpl; intros; lia.
Qed.

Section DataProofs.
Variable T : Type.
Variable fin : T -> bool.
Variables one dflt : T.

Notation where_mask := (where_mask T fin dflt).
Notation estimation_data := (estimation_data T fin one dflt).

(* ---- list helpers ---- *)
Lemma nth_skipn_add (a j : nat) (l : list T) : nth j (skipn a l) dflt = nth (a + j) l dflt.
Proof.
revert l; induction a as [|a IH]; intros l; simpl; [reflexivity|].
destruct l as [|x l]; simpl; [destruct j; reflexivity | apply IH].
Qed.

Lemma nth_firstn_lt (b j : nat) (l : list T) : j < b -> nth j (firstn b l) dflt = nth j l dflt.
Proof.
revert j l; induction b as [|b IH]; intros j l Hj; [lia|].
destruct l as [|x l]; simpl; [destruct j; reflexivity|].
destruct j as [|j]; simpl; [reflexivity | apply IH; lia].
Qed.

Lemma pyslice_nth (a b j : nat) (row : list T) :
  j < b - a -> nth j (pyslice T a b row) dflt = nth (a + j) row dflt.
Proof. intros Hj; unfold pyslice; rewrite nth_firstn_lt by exact Hj; apply nth_skipn_add. Qed.

Lemma pyslice_length (a b : nat) (row : list T) : b <= length row -> length (pyslice T a b row) = b - a.
Proof. intros Hb; unfold pyslice; rewrite firstn_length, skipn_length; lia. Qed.

Lemma nth_map_seq_from {B} (f : nat -> B) (s N j : nat) (d : B) : j < N -> nth j (map f (seq s N)) d = f (s + j).
Proof.
intros Hj; rewrite (nth_indep _ d (f 0)) by (rewrite map_length, seq_length; exact Hj).
rewrite map_nth, seq_nth by exact Hj; reflexivity.
Qed.

Lemma nth_map_seq {B} (f : nat -> B) (N j : nat) (d : B) : j < N -> nth j (map f (seq 0 N)) d = f j.
Proof. intros Hj; rewrite nth_map_seq_from by exact Hj; reflexivity. Qed.

Lemma nth_map_lt {A B} (g : A -> B) (l : list A) (v : nat) (d : B) (d' : A) :
  v < length l -> nth v (map g l) d = g (nth v l d').
Proof.
intros Hv; rewrite (nth_indep _ d (g d')) by (rewrite map_length; exact Hv); apply map_nth.
Qed.

(* ---- the mask ---- *)
Lemma where_mask_length (N : nat) rows : length (where_mask N rows) = N.
Proof. unfold RedVar.where_mask; rewrite map_length, seq_length; reflexivity. Qed.

Lemma where_mask_nth (N : nat) rows (j : nat) : j < N ->
  (nth j (where_mask N rows) false = true <-> Forall (fun row => fin (nth j row dflt) = true) rows).
Proof.
intros Hj; unfold RedVar.where_mask; rewrite nth_map_seq by exact Hj.
rewrite Forall_forall; apply forallb_forall.
Qed.

(* ---- lag stacking ---- *)
Lemma nth_concat_uniform {B} (n : nat) (blocks : list (list B)) (i v : nat) (d : B) :
  (forall b, In b blocks -> length b = n) -> v < n ->
  nth (i * n + v) (concat blocks) d = nth v (nth i blocks []) d.
Proof.
revert i; induction blocks as [|b blocks IH]; intros i Hlen Hv; simpl.
- destruct (i * n + v); destruct i; destruct v; reflexivity.
- assert (Hb : length b = n) by (apply Hlen; left; reflexivity).
  destruct i as [|i]; simpl.
  + rewrite app_nth1 by lia; reflexivity.
  + rewrite app_nth2 by lia. replace (n + i * n + v - length b) with (i * n + v) by lia.
    apply IH; [intros b' Hb'; apply Hlen; right; exact Hb' | exact Hv].
Qed.

(* row (i*n + v) of y1 is lag i+1 of variable v: column j holds the observation of period p + j - (i+1) *)
Lemma stack_y1_nth (p N : nat) ys (i v j : nat) :
  (forall r, In r ys -> length r = p + N) -> i < p -> v < length ys -> j < N ->
  nth j (nth (i * length ys + v) (stack_y1 T p ys) []) dflt = nth (p + j - S i) (nth v ys []) dflt.
Proof.
intros Hlen Hi Hv Hj; unfold stack_y1.
rewrite (nth_concat_uniform (length ys)); [| | exact Hv].
2:{ intros b Hb; apply in_map_iff in Hb; destruct Hb as (i' & <- & _); unfold lag_block; apply map_length. }
rewrite nth_map_seq_from by exact Hi; unfold lag_block.
rewrite (nth_map_lt _ _ _ _ []) by exact Hv.
assert (Hr : length (nth v ys []) = p + N) by (apply Hlen, nth_In; exact Hv).
rewrite pyslice_nth by (rewrite Hr; lia).
f_equal; lia.
Qed.

Lemma stack_y0_nth (p : nat) ys (v j : nat) :
  v < length ys -> nth j (nth v (stack_y0 T p ys) []) dflt = nth (p + j) (nth v ys []) dflt.
Proof.
intros Hv; unfold stack_y0.
rewrite (nth_map_lt _ _ _ _ []) by exact Hv; apply nth_skipn_add.
Qed.

(* ---- which columns of each stacked block are finite ---- *)
(* y[:, p:] and x[:, p:] *)
Lemma finite_skipn (p j : nat) rows :
  Forall (fun row => fin (nth j row dflt) = true) (map (skipn p) rows) <->
  forall r, In r rows -> fin (nth (p + j) r dflt) = true.
Proof.
rewrite Forall_map, Forall_forall.
split; intros H r Hr; [rewrite <- nth_skipn_add | rewrite nth_skipn_add]; apply H, Hr.
Qed.

Lemma finite_stack_y1 (p N j : nat) ys :
  (forall r, In r ys -> length r = p + N) -> j < N ->
  (Forall (fun row => fin (nth j row dflt) = true) (stack_y1 T p ys) <->
   forall r i, In r ys -> 1 <= i <= p -> fin (nth (p + j - i) r dflt) = true).
Proof.
intros Hlen Hj; unfold stack_y1, lag_block; rewrite Forall_concat, Forall_map, Forall_forall.
assert (E : forall r i, In r ys -> 1 <= i <= p ->
              nth j (pyslice T (p - i) (length r - i) r) dflt = nth (p + j - i) r dflt).
{ intros r i Hr Hi; rewrite pyslice_nth by (rewrite (Hlen r Hr); lia); f_equal; lia. }
split.
- intros H r i Hr Hi; rewrite <- E by assumption.
  assert (Hi' : In i (seq 1 p)) by (apply in_seq; lia).
  apply H, Forall_map in Hi'; exact (proj1 (Forall_forall _ _) Hi' r Hr).
- intros H i Hi; apply in_seq in Hi; apply Forall_map, Forall_forall; intros r Hr.
  rewrite E by (assumption || lia); apply H; [exact Hr | lia].
Qed.

Lemma finite_stack_k (k N j : nat) :
  j < N -> fin one = true -> Forall (fun row => fin (nth j row dflt) = true) (stack_k T one k N).
Proof.
intros Hj Hone; apply Forall_forall; intros row Hrow; apply repeat_spec in Hrow; subst row.
rewrite (nth_indep _ dflt one) by (rewrite repeat_length; exact Hj); rewrite nth_repeat; exact Hone.
Qed.

(* ---- fitted periods = exactly the columns on which every needed observation is finite ---- *)
Theorem mask_exact (p k N : nat) (ys xs : list (list T)) :
  (forall r, In r ys -> length r = p + N) -> (forall r, In r xs -> length r = p + N) ->
  ys <> [] -> fin one = true ->
  let d := estimation_data p k true ys xs in
  ed_N d = N /\ length (ed_where d) = N /\
  forall j, j < N ->
    (nth j (ed_where d) false = true <->
       (forall r i, In r ys -> i <= p -> fin (nth (p + j - i) r dflt) = true) /\
       (forall r, In r xs -> fin (nth (p + j) r dflt) = true)).
Proof.
intros Hy Hx Hne Hone d; subst d; unfold RedVar.estimation_data; simpl.
assert (HN : length (nth 0 (stack_y0 T p ys) []) = N).
{ destruct ys as [|r0 ys']; [congruence|]; simpl.
  rewrite skipn_length, (Hy r0) by (left; reflexivity); lia. }
rewrite HN, where_mask_length; split; [reflexivity | split; [reflexivity|]].
intros j Hj; rewrite where_mask_nth, !Forall_app by exact Hj.
unfold stack_y0, stack_x; rewrite !finite_skipn, (finite_stack_y1 p N) by assumption.
(* lag 0 comes from y0, lags 1..p from y1; the intercept rows are always finite *)
split.
- intros (H0 & H1 & H2 & _); split; [|exact H2].
  intros r [|i] Hr Hi; [rewrite Nat.sub_0_r; apply H0, Hr | apply H1; [exact Hr | lia]].
- intros (H1 & H2); split; [|split; [|split; [exact H2 | apply finite_stack_k; assumption]]].
  + intros r Hr; rewrite <- (Nat.sub_0_r (p + j)); apply H1; [exact Hr | lia].
  + intros r i Hr Hi; apply H1; [exact Hr | lia].
Qed.

(* omit_missing = False: every column is used *)
Lemma mask_all_when_not_omitting (p k : nat) ys xs :
  let d := estimation_data p k false ys xs in ed_where d = repeat true (ed_N d).
Proof. reflexivity. Qed.
End DataProofs.
