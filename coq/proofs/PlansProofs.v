(* Proofs about the first-order conditional simulation (model/Plans.v, Part B) on the MathComp instance:
   exogenized cells are hit, only endogenized shocks change, the result is an ordinary first-order
   simulation driven by the returned shocks, and an exactly identified swap inverts a simulation.
   The one-period facts about the Kalman smoother come from proofs/SmootherProofs.v (C08). *)
From mathcomp Require Import all_ssreflect all_algebra.
From Verif.lib Require Import MatOps MatMC MatLemmas.
From Verif.model Require Import Kalman Plans.
From Verif.proofs Require Import KalmanProofs SmootherProofs.
Set Implicit Arguments.
Unset Strict Implicit.
Unset Printing Implicit Defensive.
Import GRing.Theory Num.Theory.
Local Open Scope ring_scope.

Section Masks.
Variable F : fieldType.

Lemma mc_sel0 m k msk : mc_sel msk (0 : 'M[F]_(m, k)) = 0.
Proof. by rewrite mc_selE; apply/matrixP=> i j; rewrite !mxE; case: (sel_ord _ _ _) => [r|]; rewrite ?mxE. Qed.

End Masks.

Section PlansProofs.
Variable F : realFieldType.
Variables (flog : F -> F) (flog2pi : F).
Notation M := (MC flog flog2pi).
Variables n nu nw : nat.
Variable curr : seq nat.
Notation ncur := (length curr).
Notation ccol := (@ccol M nu nw curr).
Notation csys := (@csys M n nu).

Variable s : csys.
Variable Rx : nat -> 'M[F]_(n, nu).
Variable vs : seq 'cV[F]_nu.
Variable inc : incidence.
Notation nv := (nv_of inc).
Notation na := (n + nv_of inc)%N.
Notation period := (period M na nw).
Notation fper := (fper M na nw).
Notation sper := (sper M na nw).
Notation krun := (@kf_run M na nw).
Notation kstep := (@kf_step M na nw).
Notation sback := (@smooth_back M na nw).
Notation osb := (@one_step_back M na nw).
Notation aug := (@aug_period M n nu nw curr s Rx vs inc).
Notation cper := (@cond_periods M n nu nw curr s Rx vs inc).
Notation T := (cs_T s).
Notation P := (cs_P s).
Notation K := (cs_K s).
Notation Zxi := (Z_xi M n curr).
Notation imed := (@aug_init_med M n inc).
Notation aimp := (@ant_impact M n nu Rx).
Notation genR := (fun t => @gen_R M n nu Rx t 0 inc).
Notation oxi := (@out_xi M n nw inc).
Notation ov := (@out_v M n nw inc).
Notation imse := (@aug_init_mse M n inc).
Implicit Types (c : ccol) (x : sper) (a : 'cV[F]_na) (Q : 'M[F]_na).

(* a column vector read at a position given as a number (0 outside) *)
Definition vec_nth k (v : 'cV[F]_k) (i : nat) : F := if insub i is Some j then v j ord0 else 0.
(* data[u_qids, t] = u *)
Definition out_u x : 'cV[F]_nu := \col_i vec_nth (s_u (so x)) i.

Lemma col_vec_nth k (v : 'cV[F]_k) : \col_i vec_nth v i = v.
Proof. by apply/colP=> i; rewrite mxE /vec_nth valK. Qed.

(* the periods of the conditional run satisfy the side conditions of C08 *)
Lemma aug_ok t c : ok_period (aug t c).
Proof. by split; [exact: cov_from_std_sym | exact: sym0]. Qed.

Lemma cper_ok t cols : all_ok (cper t cols).
Proof. by elim: cols t => [|c cols IH] t //=; split; [exact: aug_ok | exact: IH]. Qed.

Lemma init_mse_sym std_v : is_sym (imse std_v).
Proof.
rewrite /is_sym /aug_init_mse /= tr_block_mx !trmx0.
by have /= -> := cov_from_std_sym flog flog2pi nv std_v.
Qed.

(* the transition equation of an augmented period, split into the xi block and the block of the
   endogenized anticipated shocks (which is carried over unchanged) *)
Lemma aug_trans t c (al : 'cV[F]_na) (u : 'cV[F]_nu) :
  p_T (aug t c) *m al + p_K (aug t c) + P_times (p_us (aug t c)) u + v_term (aug t c)
  = col_mx (T *m usubmx al + K + P *m u + aimp vs t + genR t *m dsubmx al) (dsubmx al).
Proof.
rewrite /v_term /= -{1}[al]vsubmxK mul_block_col mul_col_mx !add_col_mx !mul0mx !mul1mx !addr0 add0r.
by congr col_mx; rewrite -!addrA; congr (_ + _); rewrite addrC -!addrA.
Qed.

Lemma cov_row0 k (l : seq F) (i : 'I_k) : nth 0 l i = 0 -> forall j, cov_from_std M k l j i = 0.
Proof.
move=> li j; rewrite /cov_from_std /= mxE; case: eqP => // ->.
case: (ltnP i (size l)) => [lt|ge]; last by rewrite nth_default // size_map.
by rewrite (nth_map 0) // li mulr0.
Qed.

Lemma zero_row_mul k m (C : 'M[F]_k) (B : 'M[F]_(k, m)) (i : 'I_k) :
  (forall j, C j i = 0) -> forall j, (C^T *m B) i j = 0.
Proof. by move=> h j; rewrite mxE big1 // => l _; rewrite mxE h mul0r. Qed.

(* what one backward step returns for an augmented period *)
Definition R_sim t (a_prev : 'cV[F]_na) c x : Prop :=
  [/\ oxi x = T *m usubmx a_prev + K + P *m out_u x + aimp vs t + genR t *m dsubmx a_prev,
      ov x = dsubmx a_prev,
      forall i : 'I_nu, nth 0 (c_std_u c) i = 0 -> out_u x i ord0 = c_u0 c i ord0 &
      s_w (so x) = c_w0 c].

Local Opaque kf_step one_step_back.

Lemma aug_sim_step t c a Q (f : frec (aug t c)) st : step_spec a Q f ->
  let x := mkFper (aug t c) f in
  R_sim t (a + Q *m Tr (osb x st).2) c (mkSper x (osb x st).1).
Proof.
move=> sp; have := sim_step st (proj1 (aug_ok t c)) sp; cbv zeta; rewrite (aug_trans t c) => Hs.
have := osb_spec f st; cbv zeta; case=> [Er _ Eu Ew _].
set o := (osb _ st).1 in Hs Er Eu Ew *; set st' := (osb _ st).2 in Hs Er Eu Ew *.
have Eo : out_u (mkSper (mkFper (aug t c) f) o) = s_u o by rewrite /out_u /= col_vec_nth.
split.
- by rewrite /out_xi /= Hs col_mxKu Eo.
- by rewrite /out_v /= Hs col_mxKd.
- move=> i li; rewrite Eo Eu (sp_P_cov_u sp) /= trmx_mul mxE mxE [X in _ + X]big1 ?addr0 // => j _.
  by rewrite zero_row_mul ?mul0r // => k; exact: cov_row0.
- by rewrite Ew (sp_H_cov_w sp) /= mul0mx trmx0 mul0mx addr0.
Qed.

(* relations along a run: one per simulated column, each from the smoothed state before it *)
Fixpoint cchain (R : nat -> 'cV[F]_na -> ccol -> sper -> Prop) t (a_prev : 'cV[F]_na)
    (cols : seq ccol) (l : seq sper) : Prop :=
  match cols, l with
  | c :: cols', x :: l' => R t a_prev c x /\ cchain R t.+1 (s_a (so x)) cols' l'
  | [::], [::] => True
  | _, _ => False
  end.

Theorem cond_sim_run t a Q cols : is_sym Q ->
  cchain R_sim t (a + Q *m Tr (sback (krun a Q (cper t cols))).2) cols (sback (krun a Q (cper t cols))).1.
Proof.
elim: cols t a Q => [|c cols IH] t a Q sQ; first by [].
rewrite [cper _ _]/= krun_cons sback_cons; have sp := kf_step_spec a sQ (aug_ok t c).
split; first exact: aug_sim_step.
by rewrite [s_a _](smooth_alt_step _ sp); exact: IH (sp_Q1s sp).
Qed.

Notation ocurr := (@out_curr M n nw curr inc).

Lemma Zxi_mul (xi : 'cV[F]_n) : Zxi *m xi = mc_rows curr xi.
Proof. by rewrite /Z_xi /= -mc_rows_mul mul1mx. Qed.

(* pairs (simulated column, its result) *)
Fixpoint pall (R : ccol -> sper -> Prop) (cs : seq ccol) (l : seq sper) : Prop :=
  match cs, l with
  | c :: cs', x :: l' => R c x /\ pall R cs' l'
  | [::], [::] => True
  | _, _ => False
  end.

Lemma pall_impl (R1 R2 : ccol -> sper -> Prop) cs l : (forall c x, R1 c x -> R2 c x) -> pall R1 cs l -> pall R2 cs l.
Proof. by move=> h; elim: cs l => [|c cs IH] [|x l] //= [/h ? /IH ?]. Qed.

Definition hit c x : Prop := mc_sel (c_mask c) (ocurr x) = mc_sel (c_mask c) (c_target c).

Lemma aug_hit_step t c a Q (f : frec (aug t c)) st : step_spec a Q f -> f_F f \in unitmx ->
  hit c (mkSper (mkFper (aug t c) f) (osb (mkFper (aug t c) f) st).1).
Proof.
move=> sp uF; have := data_step st (proj2 (aug_ok t c)) sp uF; cbv zeta.
set o := (osb _ st).1.
rewrite /hit /out_curr /out_xi /= mul0mx !addr0 -{1}[s_a o]vsubmxK mul_row_col mul0mx addr0.
by rewrite -mc_sel_mul Zxi_mul.
Qed.

Theorem cond_hit_run t a Q cols : is_sym Q -> all_unit (krun a Q (cper t cols)) ->
  pall hit cols (sback (krun a Q (cper t cols))).1.
Proof.
elim: cols t a Q => [|c cols IH] t a Q sQ; first by [].
rewrite [cper _ _]/= krun_cons sback_cons; case=> uF uFs; have sp := kf_step_spec a sQ (aug_ok t c).
by split; [exact: aug_hit_step sp uF | exact: IH (sp_Q1s sp) uFs].
Qed.

Lemma init_smoothed (a0 : 'cV[F]_n) std_v (r : 'cV[F]_na) :
  imed a0 + imse std_v *m r = col_mx a0 (cov_from_std M nv std_v *m dsubmx r).
Proof.
rewrite /aug_init_med /aug_init_mse /= -{1}[r]vsubmxK mul_block_col !mul0mx addr0 add0r add_col_mx.
by rewrite addr0 add0r.
Qed.

Lemma blockF q k (Tm : 'M[F]_n) (R : 'M[F]_(n, k)) (Sv : 'M[F]_k) (Pm : 'M[F]_(n, nu)) (Su : 'M[F]_nu)
    (Zs : 'M[F]_(q, n)) :
  row_mx Zs (0 : 'M_(q, k))
    *m (block_mx Tm R 0 1%:M *m block_mx 0 0 0 Sv *m (block_mx Tm R 0 1%:M)^T + col_mx Pm 0 *m Su *m (col_mx Pm 0)^T)
    *m (row_mx Zs (0 : 'M_(q, k)))^T
  = Zs *m (R *m Sv *m R^T + Pm *m Su *m Pm^T) *m Zs^T.
Proof.
rewrite mulmxDr mulmxDl !mulmxA -2!(mulmxA _ _^T _^T) -!trmx_mul.
rewrite !mul_row_block mul_row_col !(mulmx0, mul0mx, mulmx1, addr0, add0r).
rewrite tr_row_mx mul_row_col mul0mx add0r.
by rewrite !trmx_mul !mulmxDr mulmxDl !mulmxA.
Qed.

(* the prediction MSE matrix of the first simulated column: the exogenized rows of
   R Sigma_v R' + P Sigma_u P' (R = _generate_R(0), Sigma_v, Sigma_u the variances of the endogenized anticipated and
   unanticipated shocks); "all_unit" asks for its invertibility, and for that of its later counterparts *)
Lemma first_F (a0 : 'cV[F]_n) std_v c :
  let Zs := mc_sel (c_mask c) Zxi in
  f_F (kstep (imed a0) (imse std_v) (aug 0 c))
  = Zs *m (genR 0%N *m cov_from_std M nv std_v *m (genR 0%N)^T
           + P *m cov_from_std M nu (c_std_u c) *m P^T) *m Zs^T.
Proof.
move=> Zs; have sp := kf_step_spec (imed a0) (init_mse_sym std_v) (aug_ok 0 c).
rewrite (sp_F sp) (sp_Q0 sp).
have -> : p_H (aug 0 c) = 0 by [].
rewrite !mul0mx addr0; exact: blockF.
Qed.

(* _generate_R is the anticipated impact of the spread-out increments *)

Lemma mcolselE m k msk (A : 'M[F]_(m, k)) : (mc_sel msk A^T)^T = A *m (mc_sel msk (1%:M : 'M[F]_k)^T)^T.
Proof. by rewrite trmx1 -{1}[A^T]mul1mx mc_sel_mul trmx_mul trmxK. Qed.

Notation dvl := (@dv_list M nu).
Notation isum := (@imp_sum M n nu Rx).

Lemma gen_R_mul t i (ic : incidence) (v : 'cV[F]_(nv_of ic)) :
  @gen_R M n nu Rx t i ic *m v = isum t i (dvl ic v).
Proof.
elim: ic i v => [|c ic IH] i v /=; first by rewrite mul_thin_flat.
rewrite -{1}[v]vsubmxK mul_row_col IH; congr (_ + _).
by case: (Nat.ltb i t); rewrite ?mul0mx // mcolselE mulmxA.
Qed.

Notation addc := (@add_cols M nu).

Lemma size_dvl (ic : incidence) (v : 'cV[F]_(nv_of ic)) : size (dvl ic v) = size ic.
Proof. by elim: ic v => [|c ic IH] v //=; rewrite IH. Qed.

Lemma size_addc (v1 v2 : seq 'cV[F]_nu) : size v1 = size v2 -> size (addc v1 v2) = size v1.
Proof. by elim: v1 v2 => [|x v1 IH] [|y v2] //= [/IH ->]. Qed.

Lemma isum_add t i (v1 v2 : seq 'cV[F]_nu) : size v1 = size v2 ->
  isum t i (addc v1 v2) = isum t i v1 + isum t i v2.
Proof.
elim: v1 v2 i => [|x v1 IH] [|y v2] i //=; first by rewrite addr0.
case=> /IH ->; case: (Nat.ltb i t); first by rewrite !add0r.
by rewrite mulmxDr addrACA.
Qed.

(* pointwise difference of two lists of columns *)
Fixpoint subc k (l1 l2 : seq 'cV[F]_k) : seq 'cV[F]_k :=
  match l1, l2 with x :: r1, y :: r2 => (x - y) :: subc r1 r2 | _, _ => [::] end.

Lemma isum_sub t i (v1 v2 : seq 'cV[F]_nu) : size v1 = size v2 ->
  isum t i (subc v1 v2) = isum t i v1 - isum t i v2.
Proof.
elim: v1 v2 i => [|x v1 IH] [|y v2] i //=; first by rewrite subr0.
case=> /IH ->; case: (Nat.ltb i t); first by rewrite !add0r.
by rewrite mulmxBr opprD addrACA.
Qed.

Lemma dvl_sub (ic : incidence) (v1 v2 : 'cV[F]_(nv_of ic)) : dvl ic (v1 - v2) = subc (dvl ic v1) (dvl ic v2).
Proof.
elim: ic v1 v2 => [|c ic IH] v1 v2 //=.
by rewrite [usubmx _]linearB [dsubmx _]linearB /= IH mulmxBr.
Qed.

Lemma subc_addc_l (v d1 d2 : seq 'cV[F]_nu) : size v = size d1 -> size d1 = size d2 ->
  subc (addc v d1) (addc v d2) = subc d1 d2.
Proof.
elim: v d1 d2 => [|x v IH] [|y d1] [|z d2] //= [e1] [e2]; rewrite IH //.
by congr (_ :: _); rewrite opprD addrACA subrr add0r.
Qed.

(* the ordinary first-order simulation (simulate_flat; C01) *)

(* xi_t = T xi_{t-1} + K + P u_t + impact_t from column t on *)
Fixpoint flat_path (imp : nat -> 'cV[F]_n) (t : nat) (xi : 'cV[F]_n) (us : seq 'cV[F]_nu) : seq 'cV[F]_n :=
  if us is u :: r then
    let xi' := T *m xi + K + P *m u + imp t in xi' :: flat_path imp t.+1 xi' r
  else [::].

(* its homogeneous part: the response to shock increments *)
Fixpoint lin_path (imp : nat -> 'cV[F]_n) (t : nat) (xi : 'cV[F]_n) (us : seq 'cV[F]_nu) : seq 'cV[F]_n :=
  if us is u :: r then
    let xi' := T *m xi + P *m u + imp t in xi' :: lin_path imp t.+1 xi' r
  else [::].

Lemma flat_path_ext imp1 imp2 t xi us : (forall k, imp1 k = imp2 k) -> flat_path imp1 t xi us = flat_path imp2 t xi us.
Proof. by move=> E; elim: us t xi => [|u us IH] t xi //=; rewrite E IH. Qed.

Lemma lin_path_ext imp1 imp2 t xi us : (forall k, imp1 k = imp2 k) -> lin_path imp1 t xi us = lin_path imp2 t xi us.
Proof. by move=> E; elim: us t xi => [|u us IH] t xi //=; rewrite E IH. Qed.

Lemma flat_path_sub imp1 imp2 t (y1 y2 : 'cV[F]_n) us1 us2 : size us1 = size us2 ->
  subc (flat_path imp1 t y1 us1) (flat_path imp2 t y2 us2)
  = lin_path (fun k => imp1 k - imp2 k) t (y1 - y2) (subc us1 us2).
Proof.
elim: us1 us2 t y1 y2 => [|u1 us1 IH] [|u2 us2] t y1 y2 //= [e].
have E : T *m y1 + K + P *m u1 + imp1 t - (T *m y2 + K + P *m u2 + imp2 t)
          = T *m (y1 - y2) + P *m (u1 - u2) + (imp1 t - imp2 t).
  by rewrite !mulmxBr; mx_abel.
by rewrite -E IH.
Qed.

Lemma lin_path0 t us : (forall u, List.In u us -> u = 0) -> 
  forall xi, List.In xi (lin_path (fun=> 0) t 0 us) -> xi = 0.
Proof.
elim: us t => [|u us IH] t h xi //=.
have u0 : u = 0 by apply: h; left.
rewrite u0 !mulmx0 !addr0 => -[<- //|]; apply: IH => v hv; apply: h; by right.
Qed.

Notation ovs := (@out_vs M n nu nw vs inc).

Lemma chain_paths t (aprev : 'cV[F]_na) cols (l : seq sper) : cchain R_sim t aprev cols l ->
  [seq oxi x | x <- l]
    = flat_path (fun k => aimp vs k + genR k *m dsubmx aprev) t (usubmx aprev) [seq out_u x | x <- l]
  /\ (forall x, List.In x l -> ov x = dsubmx aprev).
Proof.
elim: cols l t aprev => [|c cols IH] [|x l] t aprev //=.
case=> -[E1 E2 _ _] /IH [Ep Ev].
rewrite /out_xi /out_v /= in E1 E2 Ep Ev.
split; last by move=> y [<- //|/Ev ->].
rewrite addrA -E1; congr (_ :: _).
by rewrite Ep E2.
Qed.

Lemma out_vs_eq (v : 'cV[F]_nv) (l : seq sper) : (forall x, List.In x l -> ov x = v) -> l <> [::] ->
  ovs l = addc vs (dvl inc v).
Proof.
move=> h ne; rewrite /out_vs; case E: (List.rev l) => [|x r].
  by case: ne; rewrite -(List.rev_involutive l) E.
by rewrite h //; apply/List.in_rev; rewrite E; left.
Qed.

Lemma cchain_size R t (aprev : 'cV[F]_na) cols (l : seq sper) : cchain R t aprev cols l -> size l = size cols.
Proof. by elim: cols l t aprev => [|c cols IH] [|x l] t aprev //= [_ /IH ->]. Qed.

Lemma cchain_impl (R1 R2 : nat -> 'cV[F]_na -> ccol -> sper -> Prop) t (aprev : 'cV[F]_na) cols (l : seq sper) :
  (forall t a c x, R1 t a c x -> R2 t a c x) -> cchain R1 t aprev cols l -> cchain R2 t aprev cols l.
Proof. by move=> h; elim: cols l t aprev => [|c cols IH] [|x l] t aprev //= [/h ? /IH ?]. Qed.

Section Run.
Variables (a0 : 'cV[F]_n) (std_v : seq F) (cols : seq ccol).

Definition run_fs : seq fper := krun (imed a0) (imse std_v) (cper 0 cols).
Definition run_l : seq sper := @cond_run M n nu nw curr s Rx vs inc a0 std_v cols.
(* the smoothed values of the endogenized anticipated shocks (increments over their inputs) *)
Definition vhat : 'cV[F]_nv := cov_from_std M nv std_v *m dsubmx (Tr (sback run_fs).2).

Lemma run_chain : cchain R_sim 0 (col_mx a0 vhat) cols run_l.
Proof. by rewrite -init_smoothed; apply: cond_sim_run; exact: init_mse_sym. Qed.

Lemma run_size : size run_l = size cols.
Proof. exact: cchain_size run_chain. Qed.

(* unless nothing is simulated *)
Lemma run_vs : run_l = [::] \/ ovs run_l = addc vs (dvl inc vhat).
Proof.
case E: run_l => [|x l]; [by left | right; rewrite -E].
have [_ Ev] := chain_paths run_chain; rewrite col_mxKd in Ev.
by apply: out_vs_eq Ev _; rewrite E.
Qed.

(* the result is the ordinary first-order simulation of the returned shocks from the given initial condition *)
Theorem run_is_simulation : size vs = size inc ->
  [seq oxi x | x <- run_l] = flat_path (aimp (ovs run_l)) 0 a0 [seq out_u x | x <- run_l].
Proof.
move=> sz; case: run_vs => [->|Hv] //.
have [-> _] := chain_paths run_chain; rewrite col_mxKu col_mxKd Hv.
apply: flat_path_ext => k.
by rewrite /ant_impact isum_add ?size_dvl // gen_R_mul.
Qed.

Lemma size_run_vs : size vs = size inc -> size (ovs run_l) = size vs.
Proof.
by move=> sz; case: run_vs => [->|->] //; rewrite size_addc // size_dvl.
Qed.

Lemma cchain_pall (R : nat -> 'cV[F]_na -> ccol -> sper -> Prop) (R' : ccol -> sper -> Prop) t (ap : 'cV[F]_na) cs l :
  (forall t a c x, R t a c x -> R' c x) -> cchain R t ap cs l -> pall R' cs l.
Proof. by move=> h; elim: cs l t ap => [|c cs IH] [|x l] t ap //= [/h ? /IH ?]. Qed.

Lemma run_hit : all_unit run_fs -> pall hit cols run_l.
Proof. by move=> uF; apply: cond_hit_run uF; exact: init_mse_sym. Qed.

Lemma dvl_off (ic : incidence) (v : 'cV[F]_(nv_of ic)) k (j : 'I_nu) :
  ~~ nth false (nth [::] ic k) j -> nth 0 (dvl ic v) k j ord0 = 0.
Proof.
elim: ic v k => [|c ic IH] v [|k] //=; rewrite ?mxE //; last exact: IH.
move=> cj; rewrite big1 // => q _.
rewrite [X in X * _](_ : _ = 0) ?mul0r // mxE mc_selE mxE.
case E: (sel_ord c nu q) => [r|] //; rewrite trmx1 mxE.
case: eqP => // rj; move: (sel_ord_set E); rewrite rj.
by rewrite (negbTE cj).
Qed.

Lemma nth_addc (v1 v2 : seq 'cV[F]_nu) k : size v1 = size v2 ->
  nth 0 (addc v1 v2) k = nth 0 v1 k + nth 0 v2 k.
Proof.
elim: v1 v2 k => [|x v1 IH] [|y v2] [|k] //=; rewrite ?addr0 //.
by case=> /IH.
Qed.

(* only endogenized shocks at endogenized dates differ from their inputs *)
Theorem run_changes_only_endogenized : size vs = size inc ->
  pall (fun c x => (forall i : 'I_nu, nth 0 (c_std_u c) i = 0 -> out_u x i ord0 = c_u0 c i ord0)
                   /\ s_w (so x) = c_w0 c) cols run_l
  /\ (forall k (j : 'I_nu), ~~ nth false (nth [::] inc k) j ->
        nth 0 (ovs run_l) k j ord0 = nth 0 vs k j ord0).
Proof.
move=> sz; split.
  by apply: cchain_pall run_chain => t a c x [].
move=> k j off; case: run_vs => [->|->] //.
by rewrite nth_addc ?size_dvl // mxE dvl_off // addr0.
Qed.

(* an exactly identified swap inverts a simulation *)

Fixpoint pall2 A (R : ccol -> A -> Prop) (cs : seq ccol) (l : seq A) : Prop :=
  match cs, l with
  | c :: cs', y :: l' => R c y /\ pall2 R cs' l'
  | [::], [::] => True
  | _, _ => False
  end.

Lemma pall_sub k (g : sper -> 'cV[F]_k) (R1 : ccol -> sper -> Prop) (R2 R3 : ccol -> 'cV[F]_k -> Prop) cs l l2 :
  (forall c x y, R1 c x -> R2 c y -> R3 c (g x - y)) ->
  pall R1 cs l -> pall2 R2 cs l2 -> pall2 R3 cs (subc [seq g x | x <- l] l2).
Proof.
move=> h; elim: cs l l2 => [|c cs IH] [|x l] [|y l2] //= [r1 p1] [r2 p2].
by split; [exact: h | exact: IH].
Qed.

Lemma subc_eq0 k (l1 l2 : seq 'cV[F]_k) : size l1 = size l2 ->
  (forall d, List.In d (subc l1 l2) -> d = 0) -> l1 = l2.
Proof.
elim: l1 l2 => [|x l1 IH] [|y l2] //= [sz] h.
rewrite (IH l2 sz); last by move=> d hd; apply: h; right.
by congr (_ :: _); apply/subr0_eq/h; left.
Qed.

(* a shock increment that lives on the endogenized_unanticipated cells of the column *)
Definition off_cells c (u : 'cV[F]_nu) : Prop := forall i : 'I_nu, nth 0 (c_std_u c) i = 0 -> u i ord0 = 0.
(* the exogenized cells of the column, read off a transition vector *)
Definition at_targets c (xi : 'cV[F]_n) : 'cV[F]_(count_true (c_mask c)) := mc_sel (c_mask c) (mc_rows curr xi).

(* "the impact matrix from the endogenized cells to the exogenized cells is non-singular": the linear map
   (increments of the endogenized unanticipated shocks, increments w of the endogenized anticipated shocks)
   |-> (response of the exogenized cells) has a trivial kernel; the response is the homogeneous first-order
   recursion started at zero *)
Definition impact_nonsingular : Prop :=
  forall (dus : seq 'cV[F]_nu) (w : 'cV[F]_nv), size dus = size cols ->
    pall2 off_cells cols dus ->
    pall2 (fun c (dxi : 'cV[F]_n) => at_targets c dxi = 0) cols (lin_path (fun t => isum t 0 (dvl inc w)) 0 0 dus) ->
    (forall du, List.In du dus -> du = 0) /\ w = 0.

Theorem run_inverts_swap (ustar : seq 'cV[F]_nu) (vstar : 'cV[F]_nv) :
  size vs = size inc -> size cols = size inc -> size ustar = size cols ->
  all_unit run_fs -> impact_nonsingular ->
  pall2 (fun c (u : 'cV[F]_nu) => forall i : 'I_nu, nth 0 (c_std_u c) i = 0 -> u i ord0 = c_u0 c i ord0) cols ustar ->
  let vsstar := addc vs (dvl inc vstar) in
  let xistar := flat_path (aimp vsstar) 0 a0 ustar in
  pall2 (fun c (xi : 'cV[F]_n) => mc_sel (c_mask c) (c_target c) = at_targets c xi) cols xistar ->
  [/\ [seq out_u x | x <- run_l] = ustar, ovs run_l = vsstar & [seq oxi x | x <- run_l] = xistar].
Proof.
move=> szv szc szu uF ns Hu vsstar xistar Ht.
have Evs : ovs run_l = addc vs (dvl inc vhat).
  case: run_vs => // E; have v0 : vs = [::] by apply: size0nil; rewrite szv -szc -run_size E.
  by rewrite E /out_vs /= v0.
have Esim := run_is_simulation szv.
have [Hk _] := run_changes_only_endogenized szv.
have Hh : pall (fun c x => mc_sel (c_mask c) (mc_rows curr (oxi x)) = mc_sel (c_mask c) (c_target c)) cols run_l.
  exact: run_hit.
set us_hat := [seq out_u x | x <- run_l] in Esim *.
set xis_hat := [seq oxi x | x <- run_l] in Esim *.
have szh : size us_hat = size ustar by rewrite size_map run_size szu.
(* the difference between the result and the driving simulation is a homogeneous response *)
have Ed : subc xis_hat xistar
          = lin_path (fun t => isum t 0 (dvl inc (vhat - vstar))) 0 0 (subc us_hat ustar).
  rewrite Esim Evs /xistar flat_path_sub // subrr; apply: lin_path_ext => k.
  by rewrite /ant_impact -isum_sub ?size_addc ?size_dvl // subc_addc_l ?size_dvl // dvl_sub.
have [H0 Hw] : (forall du, List.In du (subc us_hat ustar) -> du = 0) /\ vhat - vstar = 0.
  apply: ns.
  - have: size us_hat = size ustar := szh.
    by rewrite -szu; elim: (us_hat) (ustar) => [|? ? IH] [|? ?] //= [/IH ->].
  - apply: (pall_sub _ Hk Hu) => c x y [hx _] hy i li.
    by rewrite mxE [X in _ + X]mxE hx // hy // subrr.
  - rewrite -Ed; apply: (pall_sub _ Hh Ht) => c x y hx hy.
    by rewrite /at_targets mc_rows_sub mc_sel_sub hx hy subrr.
have Eu : us_hat = ustar := subc_eq0 szh H0.
have Ev : vhat = vstar := subr0_eq Hw.
by split; rewrite // ?Evs ?Ev // Esim Evs Ev Eu.
Qed.

End Run.

End PlansProofs.

(* non-vacuity: a concrete plan meets every hypothesis used above *)
Section Example.
Variable F : realFieldType.
Variables (flog : F -> F) (flog2pi : F).
Notation M := (MC flog flog2pi).
Variables rho tau : F.

(* x_t = rho x_{t-1} + e_t; one simulated period in which x is exogenized (target tau) and e endogenized
   (unanticipated, std 1); nothing anticipated *)
Definition ex_curr : seq nat := [:: 0%N].
Definition ex_s : csys M 1 1 := @mkCsys M 1 1 (rho%:M) 1%:M 0.
Definition ex_col : ccol M 1 0 ex_curr := @mkCcol M 1 0 ex_curr [:: true] (tau%:M) [:: 1] 0 0.
Definition ex_inc : incidence := [:: [:: false]].
Definition ex_vs : seq 'cV[F]_1 := [:: 0].
Definition ex_Rx : nat -> 'M[F]_(1, 1) := fun=> 0.

Lemma ex_sel k (A : 'M[F]_(1, k)) : mc_sel [:: true] A = A.
Proof.
rewrite mc_selE; apply/matrixP=> i j; rewrite !mxE.
have [i' E] := @sel_ord_kept [:: true] 1 ord0 isT.
have i0 : i' = 0%N.
  case: i' E => // i'; rewrite /sel_ord drop_oversize //.
  exact: leq_trans (size_mask_le _ _) _.
by rewrite i0 in E; rewrite !ord1 /= E ord1.
Qed.

Lemma ex_rows k (A : 'M[F]_(1, k)) : mc_rows [:: 0%N] A = A.
Proof. by apply/matrixP=> i j; rewrite (@mc_rows_entry _ _ _ _ _ _ ord0) ?ord1. Qed.

Lemma ex_cov1 : cov_from_std M 1 [:: 1] = 1%:M :> 'M[F]_1.
Proof. by apply/matrixP=> i j; rewrite !mxE !ord1 /= mul1r. Qed.

Theorem ex_hypotheses :
  let cols := [:: ex_col] in
  [/\ size ex_vs = size ex_inc, size cols = size ex_inc,
      all_unit (run_fs ex_s ex_Rx ex_vs ex_inc 0 [::] cols) &
      impact_nonsingular ex_s ex_Rx ex_inc cols].
Proof.
split=> //.
- rewrite /run_fs /=; split=> //.
  have /= -> := @first_F F flog flog2pi 1 1 0 ex_curr ex_s ex_Rx ex_vs ex_inc 0 [::] ex_col.
  rewrite [X in X *m _ *m _^T + _]thinmx0 !mul0mx add0r.
  have /= -> := ex_cov1.
  by rewrite /ex_curr ex_rows ex_sel !mulmx1 trmx1 ?mulmx1 ?mul1mx unitmx1.
- move=> [|du [|? ?]] w //= _ _ [h _]; split; last by rewrite [w]flatmx0.
  move: h; rewrite /at_targets /= ex_rows ex_sel !mulmx0 !add0r mul1mx.
  by rewrite /ex_Rx mul0mx !addr0 => -> d [<-|[]].
Qed.

End Example.
