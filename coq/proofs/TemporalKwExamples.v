(* Non-vacuity example for proofs/TemporalKwProofs.v: a daily series over the turn of the leap year 2024 *)
From Coq Require Import ZArith List Lia Reals Lra.
From Verif Require Import lib.Calendar lib.Arith lib.Period model.Series
     model.Temporal model.TemporalKw proofs.SeriesProofs proofs.TemporalProofs proofs.TemporalKwProofs.
Import ListNotations.
Open Scope Z_scope.

Section ExamplesKw.
Notation RA := RArith.

(* 738884 = 2023-12-30, 738885 = 2023-12-31, 738886 = 2024-01-01 (2024 is a leap year) *)
Definition ex_daily : series RA :=
  mkSeries (A:=RA) 365 (Some 738884) 1 [[1%R]; [2%R]; [4%R]; [8%R]; [16%R]].

Lemma kw_hypotheses_satisfiable :
  let x := ex_daily in
  WF RA x /\ s_start x = Some 738884 /\ cells_in RA (dom_of CumRoc) x 738884 (738884 + 5 - 1) /\
  (738884 <= 738886 <= 738888) /\ (738888 <= 738884 + 5 - 1) /\
  (forall t q, 738886 <= t <= 738888 -> kw_ref 365 Tty t = Some (Some q) -> 738884 <= q <= t) /\
  (kw_ref 365 Tty 738886 = Some None /\ kw_ref 365 Tty (738886 + 1) = Some (Some 738886)) /\
  exists c r, change_kw RA KRoc Tty x = Ok c /\ s_freq c = 365 /\
              temporal_cumulation_kw RA CumRoc Tty (InitSeries RA x) (SpanFromTo 738886 738888 1) c = Ok r.
Proof.
  intros x. split; [split; [repeat constructor|discriminate]|]. split; [reflexivity|]. split.
  { intros t c Ht Hc. simpl in Hc. assert (c = 0%nat) by lia. subst c.
    assert (Hcases : t = 738884 \/ t = 738885 \/ t = 738886 \/ t = 738887 \/ t = 738888) by lia.
    destruct Hcases as [E|[E|[E|[E|E]]]]; subst t; unfold cell, row_at, x, ex_daily; simpl; lra. }
  split; [lia|]. split; [lia|]. split.
  { intros t q Ht H. rewrite daily_tty in H by (unfold in_cal, max_ordinal; lia).
    destruct (t =? _); [discriminate H|injection H as <-; lia]. }
  split; [split; vm_compute; reflexivity|].
  remember (change_kw RA KRoc Tty x) as cc eqn:Ec.
  unfold x, ex_daily in Ec. lazy -[Rdiv Rmult Rminus Rplus Rinv Ropp IZR Rpower Rpower.ln Rtrigo_def.exp] in Ec.
  match type of Ec with _ = Ok ?v => exists v end.
  remember (temporal_cumulation_kw RA CumRoc Tty (InitSeries RA x) (SpanFromTo 738886 738888 1) _) as rr eqn:Er.
  unfold x, ex_daily in Er. lazy -[Rdiv Rmult Rminus Rplus Rinv Ropp IZR Rpower Rpower.ln Rtrigo_def.exp] in Er.
  match type of Er with _ = Ok ?v => exists v end.
  split; [exact Ec|]. split; [reflexivity|exact Er].
Qed.

End ExamplesKw.
