(* Proofs about model/SimReport.v:
   (a) simulate() reports success iff every frame of every variant reports success (any number of variants and
       frames), for every program shape with the report inside the frame loop and every reporting stream kind;
       instantiated to the generated shapes of the current source;
   (b) the rows of the dataslate for parameters / shocks / stds as decided by the three *_from_data flags. *)
From Coq Require Import List Bool Arith Lia.
From Verif Require Import lib.SimProg gen.SimReportGen model.SimReport.
Import ListNotations.

Lemma fstmt_eqb_sound : forall a b, fstmt_eqb a b = true -> a = b.
Proof. destruct a, b; simpl; intros; congruence. Qed.

Lemma list_fstmt_eqb_sound : forall a b, list_fstmt_eqb a b = true -> a = b.
Proof.
  induction a as [|x r IH]; destruct b as [|y t]; simpl; intros H; try congruence.
  apply andb_prop in H. destruct H as [H1 H2].
  apply fstmt_eqb_sound in H1. apply IH in H2. congruence.
Qed.

Section ReportProofs.
Variable add_of : wf_kind -> add_beh.
Variable fin_of : wf_kind -> fin_beh.
Variable k : wf_kind.
Variable status : nat -> nat -> bool.

Notation run_stmts := (run_stmts add_of k status).
Notation run_frames := (run_frames add_of k status).
Notation run_variants := (run_variants add_of k status).

Lemma strip_cons : forall x l, strip (x :: l) = if neutral x then strip l else x :: strip l.
Proof. intros. unfold strip. simpl. destruct (neutral x); reflexivity. Qed.

(* the neutral statements leave the state alone, so they can be dropped *)
Lemma run_stmts_strip : forall v f l s, run_stmts v f l s = run_stmts v f (strip l) s.
Proof.
  intros v f l. induction l as [|x r IH]; intros s; [reflexivity|].
  rewrite strip_cons. destruct (neutral x) eqn:N.
  - destruct x; try discriminate. exact (IH s).
  - cbn [SimReport.run_stmts]. destruct (SimReport.step add_of k status v f s x); auto.
Qed.

(* what one iteration of a well-shaped frame-loop body does *)
Definition body_spec (v f : nat) (s : rstate) : rres :=
  if status v f then Go (mkRs (Some (v, f, true)) (s_msgs s))
  else match add_of k with
       | AddRaise => Raised (mkRs (Some (v, f, false)) (s_msgs s ++ [(v, f)]))
       | AddAppend => Go (mkRs (Some (v, f, false)) (s_msgs s ++ [(v, f)]))
       | AddIgnore => Go (mkRs (Some (v, f, false)) (s_msgs s))
       end.

Lemma body_spec_ok : forall body v f s,
  (list_fstmt_eqb (strip body) [FSimulate; FReport; FRecord] || list_fstmt_eqb (strip body) [FSimulate; FReport]) = true ->
  run_stmts v f body s = body_spec v f s.
Proof.
  intros body v f s H. rewrite run_stmts_strip. unfold body_spec.
  apply orb_prop in H. destruct H as [H|H]; apply list_fstmt_eqb_sound in H; rewrite H; simpl;
    destruct (status v f); simpl; try reflexivity; destruct (add_of k); reflexivity.
Qed.

(* "a failure has been filed and will be reported at the end" *)
Definition filed (s : rstate) : Prop := s_msgs s <> [] /\ add_of k = AddAppend.
Definition flagged (r : rres) : Prop :=
  match r with Go s => filed s | Raised _ => True | Unbound => False end.
Definition clean_from (s : rstate) (r : rres) : Prop :=
  match r with Go s' => s_msgs s' = s_msgs s | _ => False end.

(* a frame is quiet when it succeeds or when add ignores what it is given *)
Definition ok (v f : nat) : bool := status v f || match add_of k with AddIgnore => true | _ => false end.

(* a run from s over quiet frames only keeps the messages of s; any other run ends flagged *)
Definition verdict (quiet : bool) (s : rstate) (r : rres) : Prop := if quiet then clean_from s r else flagged r.

Lemma verdict_filed : forall quiet s r, filed s -> verdict quiet s r -> flagged r.
Proof.
  intros [|] s r F; [|exact id]. destruct r as [s'| |]; simpl; try contradiction.
  intros E. unfold filed in *. now rewrite E.
Qed.

Lemma verdict_from : forall quiet s s1 r, s_msgs s1 = s_msgs s -> verdict quiet s1 r -> verdict quiet s r.
Proof. intros [|] s s1 r E; [|exact id]. unfold verdict, clean_from. now rewrite E. Qed.

Section Body.
Variable body : list fstmt.
Hypothesis Hbody : forall v f s, run_stmts v f body s = body_spec v f s.

Lemma frames_verdict : forall v fs s, verdict (forallb (ok v) fs) s (run_frames body v fs s).
Proof.
  intros v fs. induction fs as [|f r IH]; intros s; simpl; [reflexivity|].
  rewrite Hbody. unfold body_spec, ok at 1. destruct (status v f); simpl; [exact (IH _)|].
  destruct (add_of k) eqn:Ea; simpl.
  - exact I.
  - refine (verdict_filed _ _ _ _ (IH _)). split; [|exact Ea].
    intros C. apply app_eq_nil in C as [_ C]. discriminate.
  - exact (IH _).
Qed.
End Body.

Section Prog.
Variable p : sim_prog.
Hypothesis Hp : report_in_frame_loop p = true.

Lemma prog_shape :
  (list_fstmt_eqb (strip (p_frame_body p)) [FSimulate; FReport; FRecord]
   || list_fstmt_eqb (strip (p_frame_body p)) [FSimulate; FReport]) = true
  /\ strip (p_after_frames p) = [] /\ p_final_raise p = true.
Proof.
  unfold report_in_frame_loop in Hp. apply andb_prop in Hp as [H H3]. apply andb_prop in H as [H1 H2].
  apply list_fstmt_eqb_sound in H2. auto.
Qed.

Lemma prog_body : forall v f s, run_stmts v f (p_frame_body p) s = body_spec v f s.
Proof. intros. apply body_spec_ok, prog_shape. Qed.

Lemma prog_after : forall v f s, run_stmts v f (p_after_frames p) s = Go s.
Proof. intros. rewrite run_stmts_strip, (proj1 (proj2 prog_shape)). reflexivity. Qed.

Definition vs_ok (vs : list (nat * nat)) : bool := forallb (fun vn => forallb (ok (fst vn)) (seq 0 (snd vn))) vs.

Lemma variants_verdict : forall vs s, verdict (vs_ok vs) s (run_variants p vs s).
Proof.
  induction vs as [|[v nf] r IH]; intros s; simpl; [reflexivity|].
  unfold SimReport.run_variant.
  assert (F := frames_verdict (p_frame_body p) prog_body v (seq 0 nf) s).
  destruct (forallb (ok v) (seq 0 nf)), (SimReport.run_frames add_of k status (p_frame_body p) v (seq 0 nf) s) as [s1| |];
    simpl in F |- *; try contradiction; try exact I; rewrite prog_after.
  - exact (verdict_from _ _ _ _ F (IH s1)).
  - exact (verdict_filed _ _ _ F (IH s1)).
Qed.

Lemma in_combine_seq : forall (l : list nat) v nf,
  In (v, nf) (combine (seq 0 (length l)) l) <-> v < length l /\ nth v l 0 = nf.
Proof.
  intros l v nf. assert (L : length (seq 0 (length l)) = length l) by apply seq_length. split.
  - intros H. apply (In_nth _ _ (0, 0)) in H as [i [Hi E]]. rewrite combine_length, L, Nat.min_id in Hi.
    rewrite combine_nth, seq_nth in E by assumption. injection E as <- <-. split; [exact Hi | reflexivity].
  - intros [Hv <-]. replace (v, nth v l 0) with (nth v (combine (seq 0 (length l)) l) (0, 0))
      by (rewrite combine_nth, seq_nth; auto).
    apply nth_In. rewrite combine_length, L, Nat.min_id. exact Hv.
Qed.

Lemma vs_ok_iff : forall nfs, vs_ok (combine (seq 0 (length nfs)) nfs) = true <->
  forall v f, v < length nfs -> f < nth v nfs 0 -> ok v f = true.
Proof.
  intros nfs. unfold vs_ok. rewrite forallb_forall. split.
  - intros H v f Hv Hf. specialize (H (v, nth v nfs 0) (proj2 (in_combine_seq nfs v _) (conj Hv eq_refl))).
    rewrite forallb_forall in H. apply H, in_seq. simpl. lia.
  - intros H [v nf] Hin. apply in_combine_seq in Hin as [Hv <-].
    apply forallb_forall. simpl. intros f Hf. apply in_seq in Hf. apply H; [exact Hv | lia].
Qed.

(* simulate() reports success iff every frame of every variant is a success *)
Theorem report_iff_all_frames : forall nfs, reporting_kind add_of fin_of k = true ->
  reports_success (simulate_outcome add_of fin_of k status p nfs) = true <-> all_success status nfs.
Proof.
  intros nfs Hk. unfold simulate_outcome. rewrite (proj2 (proj2 prog_shape)).
  set (vs := combine (seq 0 (length nfs)) nfs).
  assert (E : all_success status nfs <-> vs_ok vs = true).
  { unfold vs. rewrite vs_ok_iff. unfold all_success, ok, reporting_kind in *.
    destruct (add_of k); try discriminate; split; intros H v f Hv Hf; specialize (H v f Hv Hf);
      now rewrite orb_false_r in *. }
  rewrite E. assert (V := variants_verdict vs (mkRs None [])).
  destruct (vs_ok vs), (SimReport.run_variants add_of k status p vs (mkRs None [])) as [s1| |];
    simpl in V; try contradiction.
  - unfold finish. rewrite V. destruct (fin_of k); split; reflexivity.
  - split; [intros H; exfalso | discriminate]. destruct V as [F1 F2].
    unfold reporting_kind in Hk. rewrite F2 in Hk. unfold finish in H.
    destruct (fin_of k); try discriminate; destruct (s_msgs s1); try discriminate; congruence.
  - split; discriminate.
Qed.

(* so whatever holds of every successful frame holds of every frame when success is reported *)
Theorem success_every_frame_within : forall nfs (within : nat -> nat -> Prop),
  reporting_kind add_of fin_of k = true ->
  (forall v f, status v f = true -> within v f) ->
  reports_success (simulate_outcome add_of fin_of k status p nfs) = true ->
  forall v f, v < length nfs -> f < nth v nfs 0 -> within v f.
Proof.
  intros nfs within Hk Hc H v f Hv Hf. apply Hc. apply (proj1 (report_iff_all_frames nfs Hk) H); assumption.
Qed.

End Prog.
End ReportProofs.

Lemma sim_program_shape : report_in_frame_loop sim_program = true.
Proof. reflexivity. Qed.

Lemma reporting_kinds_of_source : forall k, k <> WSilent -> reporting_kind stream_add stream_fin k = true.
Proof. intros k H. destruct k; try reflexivity. congruence. Qed.

(* silent: nothing is ever reported (the per-frame statuses of return_info are then the only report) *)
Theorem silent_never_reports : forall status nfs, simulate_report WSilent status nfs = OReturned.
Proof.
  intros. unfold simulate_report, simulate_outcome.
  assert (V := variants_verdict stream_add WSilent status sim_program sim_program_shape
                 (combine (seq 0 (length nfs)) nfs) (mkRs None [])).
  rewrite (proj2 (vs_ok_iff stream_add WSilent status nfs)) in V by (intros; apply orb_true_r).
  destruct (run_variants stream_add WSilent status sim_program _ _); [reflexivity | |]; contradiction.
Qed.

(* non-vacuity: a concrete run with three frames of which the first fails, under each kind *)
Example report_example :
  let status := fun (v f : nat) => negb (Nat.eqb f 0) in
  simulate_report WCritical status [3] = OCritical [(0, 0)]
  /\ simulate_report WError status [3; 1] = OError [(0, 0); (1, 0)]
  /\ simulate_report WWarning status [3] = OWarned [(0, 0)]
  /\ simulate_report WSilent status [3] = OReturned
  /\ simulate_report WError (fun _ _ => true) [3; 2] = OReturned.
Proof. repeat split. Qed.

(* the shape with the report moved after the frame loop (only the last frame's status decides) is refuted *)
Example report_after_loop_refuted :
  exists status nfs,
    reports_success (simulate_outcome stream_add stream_fin WError status
                       (mkProg [FSimulate; FRecord] [FReport] true) nfs) = true
    /\ ~ all_success status nfs.
Proof.
  exists (fun _ f => negb (Nat.eqb f 0)), [2]. split; [reflexivity|].
  intros H. specialize (H 0 0 (Nat.lt_0_succ _) (Nat.lt_0_succ _)). discriminate.
Qed.

Lemma group_eqb_eq : forall a b, group_eqb a b = true <-> a = b.
Proof. destruct a, b; simpl; split; intros; congruence. Qed.

Section SlatableProofs.
Variable V : Type.
Variable is_nan : V -> bool.

Lemma dlookup_app : forall (a b : list (nat * V)) n,
  dlookup (a ++ b) n = match dlookup b n with Some w => Some w | None => dlookup a n end.
Proof.
  induction a as [|[m v] r IH]; intros b n; simpl.
  - destruct (dlookup b n); reflexivity.
  - rewrite IH. destruct (dlookup b n); reflexivity.
Qed.

Lemma dlookup_group_items : forall (src : group -> nat -> option V) nn g n,
  dlookup (group_items src nn g) n = if n <? nn then src g n else None.
Proof.
  intros src nn g n. induction nn as [|nn IH]; [reflexivity|].
  unfold group_items in *. rewrite seq_S, flat_map_app, dlookup_app, IH. cbn [flat_map Nat.add].
  destruct (Nat.eq_dec n nn) as [->|N].
  - rewrite Nat.ltb_irrefl, (proj2 (Nat.ltb_lt nn (S nn))) by lia.
    destruct (src g nn); simpl; [rewrite Nat.eqb_refl|]; reflexivity.
  - replace (n <? S nn) with (n <? nn) by (destruct (Nat.ltb_spec n nn), (Nat.ltb_spec n (S nn)); reflexivity || lia).
    destruct (src g nn); simpl; [rewrite (proj2 (Nat.eqb_neq nn n)) by auto|]; reflexivity.
Qed.

Section OneName.
Variable src : group -> nat -> option V.
Variable nn : nat.
Variable flags : group -> bool.
Variable g : group.
Variable n : nat.
Variable v : V.
Hypothesis Hn : n < nn.
Hypothesis Hsrc : src g n = Some v.
Hypothesis Honly : forall g', g' <> g -> src g' n = None.     (* the name belongs to one group *)

Lemma items_lookup : forall b : sl_block,
  dlookup (group_items src nn (fst b)) n = if group_eqb (fst b) g then Some v else None.
Proof.
  intros b. rewrite dlookup_group_items, (proj2 (Nat.ltb_lt n nn) Hn).
  destruct (group_eqb (fst b) g) eqn:E.
  - apply group_eqb_eq in E. rewrite E. exact Hsrc.
  - apply Honly. intros C. apply group_eqb_eq in C. congruence.
Qed.

Lemma fold_blocks_lookup : forall blocks fo,
  let r := fold_left (run_block src nn flags) blocks fo in
  dlookup (fst r) n = (if existsb (fun b => group_eqb (fst b) g && flags (snd b)) blocks
                       then Some v else dlookup (fst fo) n)
  /\ dlookup (snd r) n = (if existsb (fun b => group_eqb (fst b) g && negb (flags (snd b))) blocks
                          then Some v else dlookup (snd fo) n).
Proof.
  induction blocks as [|b r IH]; intros fo; simpl; [split; reflexivity|].
  destruct (IH (run_block src nn flags fo b)) as [IH1 IH2]. rewrite IH1, IH2. clear IH IH1 IH2.
  unfold run_block. destruct (flags (snd b)); simpl; rewrite ?andb_true_r, ?andb_false_r; simpl.
  - rewrite dlookup_app, items_lookup. split.
    + destruct (group_eqb (fst b) g); simpl; [|reflexivity].
      match goal with |- context [existsb ?ff r] => destruct (existsb ff r) end; reflexivity.
    + reflexivity.
  - rewrite dlookup_app, items_lookup. split.
    + reflexivity.
    + destruct (group_eqb (fst b) g); simpl; [|reflexivity].
      match goal with |- context [existsb ?ff r] => destruct (existsb ff r) end; reflexivity.
Qed.

(* every group is filed by its own flag, and is filed at all *)
Definition blocks_sound (blocks : list sl_block) : bool :=
  forallb (fun b => group_eqb (fst b) (snd b)) blocks
  && forallb (fun h => existsb (fun b => group_eqb (fst b) h) blocks) [GParameters; GShocks; GStds].

Lemma sound_exists : forall blocks (phi : group -> bool), blocks_sound blocks = true ->
  existsb (fun b => group_eqb (fst b) g && phi (snd b)) blocks = phi g.
Proof.
  intros blocks phi H. apply andb_prop in H as [H1 H2]. rewrite forallb_forall in H1, H2.
  apply eq_true_iff_eq. rewrite existsb_exists. split.
  - intros [b [Hb E]]. apply andb_prop in E as [E1 E2]. apply group_eqb_eq in E1.
    specialize (H1 b Hb). apply group_eqb_eq in H1. now rewrite <- E1, H1.
  - intros Hg. assert (Hex : existsb (fun b => group_eqb (fst b) g) blocks = true) by (apply H2; destruct g; simpl; auto).
    apply existsb_exists in Hex as [b [Hb Eb]]. exists b. split; [exact Hb|]. rewrite Eb. simpl.
    specialize (H1 b Hb). apply group_eqb_eq in H1, Eb. now rewrite <- H1, Eb.
Qed.

Lemma assemble_lookup : forall blocks, blocks_sound blocks = true ->
  let fo := assemble_with blocks src nn flags in
  dlookup (fst fo) n = (if flags g then Some v else None)
  /\ dlookup (snd fo) n = (if flags g then None else Some v).
Proof.
  intros blocks H. unfold assemble_with. destruct (fold_blocks_lookup blocks ([], [])) as [A B].
  cbv zeta in *. rewrite A, B. simpl.
  rewrite (sound_exists blocks flags H), (sound_exists blocks (fun h => negb (flags h)) H).
  destruct (flags g); split; reflexivity.
Qed.

(* the row of the dataslate: from data -> data with the model's value where the databox has nothing (NaN);
   not from data -> the model's value whatever the databox holds *)
Theorem row_by_flag_general : forall blocks row, blocks_sound blocks = true ->
  slate_row_with is_nan [PFallbacks; POverwrites] (assemble_with blocks src nn flags) n row
  = if flags g then map (fun x => if is_nan x then v else x) row else map (fun _ => v) row.
Proof.
  intros blocks row H. destruct (assemble_lookup blocks H) as [A B]. cbv zeta in *.
  unfold slate_row_with. simpl. rewrite A, B. destruct (flags g); reflexivity.
Qed.

End OneName.
End SlatableProofs.

Lemma slatable_blocks_sound : blocks_sound slatable_blocks = true.
Proof. reflexivity. Qed.

Lemma variant_post_order : variant_post = [PFallbacks; POverwrites].
Proof. reflexivity. Qed.

Lemma sim_flag_wiring_id : forall g, sim_flag_wiring g = g.
Proof. destruct g; reflexivity. Qed.

Lemma default_parameters_not_from_data : sim_default_from_data GParameters = false
  /\ sim_default_from_data GShocks = true /\ sim_default_from_data GStds = true.
Proof. repeat split. Qed.

(* non-vacuity: two parameters (names 0, 1), one shock (name 2), one std (name 3); the databox carries a stale value
   9 under parameter 0 and nothing (NaN, here 0) for the shock in the second column *)
Example slatable_example :
  let src := fun (g : group) (n : nat) =>
     match g, n with GParameters, 0 => Some 5 | GParameters, 1 => Some 6 | GShocks, 2 => Some 100 | GStds, 3 => Some 7
                   | _, _ => None end in
  let isn := Nat.eqb 0 in
  simulate_row isn src 4 sim_default_from_data 0 [9; 9; 9] = [5; 5; 5]
  /\ simulate_row isn src 4 sim_default_from_data 2 [3; 0; 4] = [3; 100; 4]
  /\ simulate_row isn src 4 (fun _ => true) 0 [9; 0; 9] = [9; 5; 9]
  /\ simulate_row isn src 4 (fun _ => false) 2 [3; 0; 4] = [100; 100; 100].
Proof. repeat split. Qed.

(* the shape with the parameters filed under the stds flag is refuted: the databox wins over the model's parameter *)
Example parameters_under_stds_flag_refuted :
  let src := fun (g : group) (n : nat) => match g, n with GParameters, 0 => Some 5 | _, _ => None end in
  slate_row_with (Nat.eqb 0) variant_post
    (assemble_with [(GParameters, GStds); (GShocks, GShocks); (GStds, GStds)] src 1 sim_default_from_data) 0 [9; 9]
  = [9; 9].
Proof. reflexivity. Qed.
