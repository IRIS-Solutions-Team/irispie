(* C10: every operation of the Series model keeps a series well formed, and which ones leave it trimmed;
   the invariant over arbitrary operation histories. *)
From Coq Require Import ZArith List Bool Lia.
From Verif Require Import lib.Arith model.Series model.SeriesOps proofs.SeriesProofs.
Import ListNotations.
Open Scope Z_scope.

Section OpsProofs.
Variable A : Arith.
Notation V := (car A).
Notation series := (series A).
Hypothesis miss_law : forall x : V, is_miss A x = true -> x = miss A.
Variable X : ArithExt A.

Definition Trimmed (s : series) : Prop :=
  match s_start s with
  | None => s_data s = []
  | Some _ => s_data s <> [] /\ all_miss A (hd [] (s_data s)) = false /\ all_miss A (last (s_data s) []) = false
  end.

Lemma hd_app_nonempty {T} (a b : list T) d : a <> [] -> hd d (a ++ b) = hd d a.
Proof. destruct a; [contradiction|reflexivity]. Qed.

Lemma trim_Trimmed (s : series) : WF A s -> Trimmed (trim A s).
Proof.
  intros [Hok Hnone]. destruct s as [fr [st|] nv rows]; simpl in *; [|reflexivity].
  destruct (trim_spec A miss_law fr st nv rows Hok) as (n & m & body & _ & _ & Hends & ->).
  destruct body; [reflexivity|]. split; [discriminate|]. now apply Hends.
Qed.

Lemma trim_ok (s : series) : WF A s -> WF A (trim A s) /\ Trimmed (trim A s).
Proof. intros H. split; [now apply trim_WF|now apply trim_Trimmed]. Qed.

Lemma build_Trimmed fr nv lo hi f : (forall u, length (f u) = nv) -> Trimmed (build A fr nv lo hi f).
Proof.
  intros Hf. apply trim_Trimmed. split; simpl; [now apply rows_ok_map|discriminate].
Qed.

Lemma upd_cols_len (old : list V) vids new k : length (upd_cols A old vids new k) = length old.
Proof. apply upd_cols_length. Qed.

Lemma set_data_Trimmed fr (s : series) dates rows vids :
  WF A s -> (dates <> [] \/ Trimmed s) -> Trimmed (set_data A fr s dates rows vids).
Proof.
  intros Hwf Hc. unfold set_data. destruct dates as [|d0 ds].
  - destruct Hc as [Hc|Hc]; [contradiction|assumption].
  - apply build_Trimmed. intros u. now apply set_data_fun_len.
Qed.

Lemma empty_WF nv : WF A (empty_series A nv).
Proof. split; simpl; [constructor|reflexivity]. Qed.

Lemma recreate_WF fr s dates vids : WF A (recreate A fr s dates vids).
Proof. unfold recreate. apply set_data_WF_any; [assumption|apply empty_WF]. Qed.

Lemma clip_WF s a b r : WF A s -> clip A s a b = Ok r -> WF A r.
Proof.
  intros Hwf. unfold clip. destruct (s_start s) as [st|] eqn:Es; [|intros H; inversion H; now subst].
  unfold s_end. rewrite Es. destruct (_ && _); intros H; inversion H; subst; [assumption|].
  split; simpl; [|discriminate]. apply rows_ok_map. intros u _. now apply row_at_length.
Qed.

Lemma bcast_series_WF s n r : WF A s -> bcast_series A s n = Ok r -> WF A r /\ s_nv r = n.
Proof.
  intros [H1 H2]. unfold bcast_series. destruct (Nat.eqb_spec (s_nv s) n).
  - intros H; inversion H; subst. split; [split; assumption|reflexivity].
  - destruct (Nat.eqb (s_nv s) 1); [|discriminate]. intros [= <-]. split; [|reflexivity].
    apply map_rows_WF; [now split|]. intros r _. apply repeat_length.
Qed.

Lemma overlay_core_ok s o : WF A s -> WF A (overlay_core A s o) /\ Trimmed (overlay_core A s o).
Proof.
  intros H. apply trim_ok. now apply set_data_WF_any.
Qed.

(* whichever operand is broadcast, the receiver of the core operation is well formed *)
Lemma overlay_WF s o r : WF A s -> overlay A s o = Ok r -> WF A r /\ Trimmed r.
Proof.
  intros Hs. unfold overlay. destruct (freq_clash A s o); [discriminate|].
  destruct (Nat.eqb (s_nv s) (s_nv o)); [intros [= <-]; now apply overlay_core_ok|].
  destruct (Nat.eqb (s_nv s) 1).
  - destruct (bcast_series A s (s_nv o)) as [s'|] eqn:E; [|discriminate].
    intros [= <-]. apply overlay_core_ok. now apply (bcast_series_WF _ _ _ Hs E).
  - destruct (Nat.eqb (s_nv o) 1); [|discriminate]. destruct (bcast_series A o (s_nv s)); [|discriminate].
    intros [= <-]. now apply overlay_core_ok.
Qed.

(* underlay is overlay with the roles exchanged *)
Lemma underlay_overlay s o : underlay A s o = overlay A o s.
Proof.
  unfold underlay, overlay.
  replace (freq_clash A o s) with (freq_clash A s o)
    by (unfold freq_clash; destruct (s_start s), (s_start o); try reflexivity; now rewrite Z.eqb_sym).
  destruct (freq_clash A s o); [reflexivity|]. rewrite (Nat.eqb_sym (s_nv o) (s_nv s)).
  destruct (Nat.eqb_spec (s_nv s) (s_nv o)) as [E|E]; [reflexivity|].
  (* with different numbers of variants at most one side is broadcast *)
  destruct (Nat.eqb_spec (s_nv s) 1), (Nat.eqb_spec (s_nv o) 1); try reflexivity. congruence.
Qed.

Lemma underlay_WF s o r : WF A o -> underlay A s o = Ok r -> WF A r /\ Trimmed r.
Proof. rewrite underlay_overlay. apply overlay_WF. Qed.

(* a successful hstack: the empty series for two empty operands, otherwise built period by period *)
Lemma hstack_ok s1 s2 r : hstack A s1 s2 = Ok r ->
  (s_start s1 = None /\ s_start s2 = None /\ r = empty_series A (s_nv s1 + s_nv s2)) \/
  exists fr lo hi, omin (s_start s1) (s_start s2) = Some lo /\ omax (s_end A s1) (s_end A s2) = Some hi /\
    r = build A fr (s_nv s1 + s_nv s2) lo hi (fun t => row_at A s1 t ++ row_at A s2 t).
Proof.
  unfold hstack, freq_clash. intros H.
  destruct (s_start s1) eqn:E1, (s_start s2) eqn:E2; [right..|left; now injection H as <-]; cbv iota in H.
  1: destruct (negb (s_freq s1 =? s_freq s2)); [discriminate|].
  all: destruct (omin _ _) as [lo|]; [|discriminate]; destruct (omax _ _) as [hi|]; [|discriminate];
    injection H as <-; eauto 7.
Qed.

Lemma hstack_row_length s1 s2 u : WF A s1 -> WF A s2 -> length (row_at A s1 u ++ row_at A s2 u) = (s_nv s1 + s_nv s2)%nat.
Proof. intros H1 H2. now rewrite app_length, !row_at_length. Qed.

Lemma hstack_WF s1 s2 r : WF A s1 -> WF A s2 -> hstack A s1 s2 = Ok r -> WF A r /\ Trimmed r.
Proof.
  intros H1 H2 [(_ & _ & ->)|(fr & lo & hi & _ & _ & ->)]%hstack_ok; [split; [apply empty_WF|reflexivity]|].
  split; [apply build_WF|apply build_Trimmed]; try assumption; intros u; now apply hstack_row_length.
Qed.

Lemma binop_WF f s1 s2 r : WF A s1 -> WF A s2 -> binop A f s1 s2 = Ok r -> WF A r /\ Trimmed r.
Proof.
  intros H1 H2 [(_ & _ & ->)|(fr & lo & hi & _ & _ & ->)]%binop_ok; [split; [apply empty_WF|reflexivity]|].
  assert (Hlen : forall u, length (zip_bcast A f (row_at A s1 u) (row_at A s2 u)) = Nat.max (s_nv s1) (s_nv s2))
    by (intros u; rewrite zip_bcast_length, !row_at_length by assumption; reflexivity).
  split; [now apply build_WF|now apply build_Trimmed].
Qed.

Lemma map_notrim_WF f (s : series) : WF A s -> WF A (map_notrim A f s).
Proof. intros Hwf. apply map_rows_WF; [assumption|]. intros r Hr. now rewrite map_length. Qed.

Lemma map_data_WF f (s : series) : WF A s -> WF A (map_data A f s) /\ Trimmed (map_data A f s).
Proof.
  intros Hw. now apply trim_ok, map_notrim_WF.
Qed.

Lemma moving_WF m k s r : WF A s -> moving A m k s = Ok r -> WF A r /\ Trimmed r.
Proof.
  intros Hwf. unfold moving. destruct (s_data s) eqn:Ed; [discriminate|]. rewrite <- Ed.
  destruct (Nat.eqb k 0); [discriminate|]. intros [= <-].
  apply trim_ok, respan_seq_WF; [assumption|]. intros i. now rewrite map_length, seq_length.
Qed.

Lemma statistic_WF k (s : series) : WF A s -> WF A (statistic A X k s) /\ Trimmed (statistic A X k s).
Proof.
  intros Hw. now apply trim_ok, map_rows_WF.
Qed.

Lemma fill_missing_WF fr k span (s : series) : WF A s -> WF A (fill_missing A fr k span s) /\ Trimmed (fill_missing A fr k span s).
Proof.
  intros Hwf. apply trim_ok. now apply set_data_WF_any.
Qed.

Lemma alter_nv_WF (s : series) n : WF A s -> WF A (alter_num_variants A s n).
Proof.
  intros Hwf. apply map_rows_WF; [assumption|]. intros r _. rewrite app_length, firstn_length, repeat_length. lia.
Qed.

Definition AllWF (rs : regs A) : Prop := Forall (WF A) rs.

Lemma getr_WF rs i : AllWF rs -> WF A (getr A rs i).
Proof.
  intros H. unfold getr. destruct (Nat.ltb_spec i (length rs)).
  - eapply Forall_forall; [exact H|]. now apply nth_In.
  - rewrite nth_overflow by lia. apply empty_WF.
Qed.

Lemma setr_WF rs i s : AllWF rs -> WF A s -> AllWF (setr A rs i s).
Proof.
  intros H Hs. revert i. induction H as [|x l Hx Hl IH]; intros i; simpl; [destruct i; constructor|].
  destruct i; constructor; auto. apply IH.
Qed.

(* operations after which the result is trimmed: writes, operators, lays, stacking, windows, statistics, fills *)
Definition trimming_op (o : sop A) : bool :=
  match o with
  | OpSet _ _ _ dates _ _ => match dates with [] => false | _ => true end
  | OpBin _ _ _ _ _ | OpScalar _ _ _ _ _ _ | OpOverlay _ _ _ _ | OpOverlayF _ _ _ _ _ | OpHstack _ _ _ _
  | OpMov _ _ _ _ _ | OpStat _ _ _ _ | OpFill _ _ _ _ _ _ | OpFillFrom _ _ _ _ _ _ => true
  | _ => false
  end.

(* the result of every successful operation is well formed, and trimmed after a trimming operation *)
Lemma exec_ok rs o d s : AllWF rs -> exec A X rs o = (d, Ok s) ->
  WF A s /\ (trimming_op o = true -> Trimmed s).
Proof.
  intros Hrs. pose proof (fun i => getr_WF rs i Hrs) as G.
  destruct o; simpl; intros [= _ H]; try subst s.
  - split; [now apply set_data_WF_any|]. intros Ht. apply set_data_Trimmed; [apply G|]. left. now destruct dates.
  - split; [apply recreate_WF|discriminate].
  - split; [apply G|discriminate].
  - split; [apply shift_by_WF, G|discriminate].
  - split; [eapply clip_WF; [apply G|exact H]|discriminate].
  - enough (WF A s /\ Trimmed s) by tauto. destruct under; [eapply underlay_WF|eapply overlay_WF]; try exact H; apply G.
  - enough (WF A s /\ Trimmed s) by tauto. destruct under; [eapply underlay_WF|eapply overlay_WF]; try exact H; apply G.
  - enough (WF A s /\ Trimmed s) by tauto. eapply hstack_WF; try exact H; apply G.
  - enough (WF A s /\ Trimmed s) by tauto. eapply binop_WF; try exact H; apply G.
  - split; [|intros _]; apply map_data_WF, G.
  - split; [apply map_notrim_WF, G|discriminate].
  - split; [apply map_notrim_WF, G|discriminate].
  - split; [apply map_notrim_WF, G|discriminate].
  - enough (WF A s /\ Trimmed s) by tauto. eapply moving_WF; try exact H; apply G.
  - split; [|intros _]; apply statistic_WF, G.
  - split; [|intros _]; apply fill_missing_WF, G.
  - split; [|intros _]; apply fill_missing_WF, G.
  - split; [apply alter_nv_WF, G|discriminate].
Qed.

Lemma step_WF rs o : AllWF rs -> AllWF (fst (step A X rs o)).
Proof.
  intros Hrs. unfold step. destruct (exec A X rs o) as [d r] eqn:E. destruct r as [s|e]; simpl; [|assumption].
  apply setr_WF; [assumption|]. now apply (exec_ok rs o d s Hrs E).
Qed.

Section SpanCovers.
Hypothesis miss_is_miss : is_miss A (miss A) = true.

Lemma nth_missrow n c : nth c (missrow A n) (miss A) = miss A.
Proof. unfold missrow. destruct (Nat.ltb_spec c n); [now apply nth_repeat|]. apply nth_overflow. rewrite repeat_length. lia. Qed.

(* the span covers every non-missing value *)
Theorem span_covers (s : series) t c :
  is_miss A (cell A s t c) = false ->
  exists st en, s_start s = Some st /\ s_end A s = Some en /\ st <= t <= en.
Proof.
  intros H. unfold cell in H. destruct (s_start s) as [st|] eqn:Es.
  - pose proof (s_end_some A s st Es) as Ee.
    exists st, (st + Z.of_nat (length (s_data s)) - 1). split; [reflexivity|]. split; [exact Ee|].
    enough (~ (t < st \/ st + Z.of_nat (length (s_data s)) - 1 < t)) by lia. intros Ho.
    rewrite (row_at_outside A s t st _ Es Ee Ho), nth_missrow, miss_is_miss in H. discriminate.
  - rewrite row_at_empty, nth_missrow, miss_is_miss in H by assumption. discriminate.
Qed.
End SpanCovers.

(* the stored rows are the map restricted to the span *)
Lemma data_as_map (s : series) st : WF A s -> s_start s = Some st ->
  s_data s = map (row_at A s) (zrange st (st + Z.of_nat (length (s_data s)))).
Proof.
  intros _ Es. apply nth_ext with (d := missrow A (s_nv s)) (d' := missrow A (s_nv s)).
  - rewrite map_length, zrange_length. lia.
  - intros i Hi. rewrite nth_map_in with (d' := 0) by (rewrite zrange_length; lia).
    rewrite zrange_nth by lia. unfold row_at. rewrite Es.
    destruct (Z.ltb_spec (st + Z.of_nat i) st); [lia|]. f_equal. lia.
Qed.

(* the ends of the span that clip leaves *)
Definition clip_lo (a : option Z) (st : Z) : Z := match a with None => st | Some x => Z.max x st end.
Definition clip_hi (b : option Z) (en : Z) : Z := match b with None => en | Some x => Z.min x en end.

End OpsProofs.
