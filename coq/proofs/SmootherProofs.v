(* Proofs about the backward pass of the Kalman model (model/Kalman.v: one_step_back, smooth_back,
   update_all) on the MathComp instance: the smoothed state is a simulation of the model and
   reproduces the observed data; deviation mode; output mapping. *)
From mathcomp Require Import all_ssreflect all_algebra.
From Verif.lib Require Import MatOps MatMC MatLemmas.
From Verif.model Require Import Kalman.
From Verif.proofs Require Import KalmanStepEqs KalmanProofs.
Set Implicit Arguments.
Unset Strict Implicit.
Unset Printing Implicit Defensive.
Import GRing.Theory Num.Theory.
Local Open Scope ring_scope.

Section SmootherProofs.
Variable F : realFieldType.
Variables (flog : F -> F) (flog2pi : F).
Notation M := (MC flog flog2pi).
Variables n nw : nat.
Notation period := (period M n nw).
Notation fper := (fper M n nw).
Notation sper := (sper M n nw).
Notation bstate := (bstate M n).
Notation kstep := (@kf_step M n nw).
Notation krun := (@kf_run M n nw).
Notation step_spec := (@step_spec F flog flog2pi n nw).
Notation all_ok := (@all_ok F flog flog2pi n nw).
Notation all_unit := (@all_unit F flog flog2pi n nw).
Implicit Types (p : period) (a : 'cV[F]_n) (Q : 'M[F]_n) (st : bstate).

Definition r_of st : 'cV[F]_n := if st is Some (_, r, _) then r else 0.
Definition T_of st : 'M[F]_n := if st is Some (_, _, T) then T else 0.
Definition N_of st : 'M[F]_n := if st is Some (N, _, _) then N else 0.
(* T_{t+1}' r_{t+1}: what the smoothed state of period t needs from the later periods *)
Definition Tr st : 'cV[F]_n := (T_of st)^T *m r_of st.

Local Arguments symmetrize : simpl never.

(* one_step_back in closed form; the `t > last_period_of_observations` branch is the case r = 0 *)
Lemma osb_spec p (f : frec p) st :
  let x := mkFper p f in
  let o := (one_step_back x st).1 in let st' := (one_step_back x st).2 in
  let TG := T_of st *m f_G f in
  let L := T_of st - TG *m p_Z p in
  [/\ r_of st' = f_Zt_Fi f *m f_pe f + L^T *m r_of st,
      s_a o = f_a0 f + f_Q0 f *m r_of st',
      s_u o = u_med (p_us p) + (f_P_cov_u f)^T *m r_of st',
      s_w o = p_w0 p + (f_H_cov_w f)^T *m (f_Fi f *m f_pe f - TG^T *m r_of st) &
      Tr st' = (p_T p)^T *m r_of st'].
Proof.
lazy zeta; case E: (one_step_back _ st) => [o st'] /=; move: E; rewrite /one_step_back /Tr.
case: st => [[[N r] Tn]|] /=; first by rewrite orbT => -[<- <-].
rewrite orbF; case: ifP => [_|/ltb0 E] [<- <-] /=.
  by rewrite !mulmx0 !addr0 subr0.
by rewrite !mulmx0 !addr0 !(mulmx_dim0 _ _ E) !addr0.
Qed.

(* C08_smooth_alt, one period: the smoothed state is the updated state corrected by what later periods tell,
   alpha_hat_t = a1_t + Q1_t T_{t+1}' r_{t+1} *)
Lemma smooth_alt_step a Q p (f : frec p) st : step_spec a Q f ->
  s_a (one_step_back (mkFper p f) st).1 = f_a1 f + f_Q1 f *m Tr st.
Proof.
move=> sp; have [Er -> _ _ _] := osb_spec f st; rewrite Er.
rewrite (sp_a1 sp) (sp_Q1 sp) (sp_Zt_Fi sp) /Tr.
have Gt := sp_Gt sp.
rewrite trmxB 2!trmx_mul Gt (sp_G sp).
rewrite !(mulmxDr, mulmxBr, mulmxDl, mulmxBl) ?(mulmxN, mulNmx) !mulmxA ?(mulmxN, mulNmx).
by rewrite !addrA.
Qed.

(* C08_smooth_is_simulation, one period: the smoothed state of period t is the model's transition equation applied
   to the smoothed state of period t-1 (written through thm 1 as a1_{t-1} + Q1_{t-1} T_t' r_t) with the
   smoothed shocks u_hat_t = u0_t + (P cov_u)' r_t *)
Lemma sim_step a Q p (f : frec p) st : is_sym (u_cov (p_us p)) -> step_spec a Q f ->
  let o := (one_step_back (mkFper p f) st).1 in let st' := (one_step_back (mkFper p f) st).2 in
  s_a o = p_T p *m (a + Q *m Tr st') + p_K p + P_times (p_us p) (s_u o) + v_term p.
Proof.
move=> scu sp /=; have [_ -> -> _ ->] := osb_spec f st.
rewrite (sp_P_cov_u sp) P_times_smooth // (sp_a0 sp) (sp_Q0 sp).
rewrite !(mulmxDr, mulmxDl) !mulmxA.
by mx_abel.
Qed.

(* C08_smooth_reproduces_data, one period: the measurement equations hold exactly on the observed rows *)
Lemma data_step a Q p (f : frec p) st : is_sym (p_cov_w p) -> step_spec a Q f -> f_F f \in unitmx ->
  let o := (one_step_back (mkFper p f) st).1 in
  p_Z p *m s_a o + p_D p + p_H p *m s_w o = p_y p.
Proof.
move=> scw sp uF /=; have [Er -> _ -> _] := osb_spec f st; rewrite Er.
have FFi : f_F f *m f_Fi f = 1%:M by rewrite (sp_Fi sp) mulmxV.
have Gt := sp_Gt sp.
set r := r_of st; set Tn := T_of st.
set W := f_Fi f *m f_pe f - (Tn *m f_G f)^T *m r.
have -> : f_Zt_Fi f *m f_pe f + (Tn - Tn *m f_G f *m p_Z p)^T *m r = (p_Z p)^T *m W + Tn^T *m r.
  rewrite /W (sp_Zt_Fi sp) trmxB !trmx_mul mulmxBr mulmxBl !mulmxA.
  by mx_abel.
have FW : p_Z p *m f_Q0 f *m (p_Z p)^T *m W + p_H p *m p_cov_w p *m (p_H p)^T *m W
          = f_pe f - p_Z p *m f_Q0 f *m Tn^T *m r.
  rewrite -mulmxDl -(sp_F sp) /W mulmxBr !mulmxA FFi mul1mx trmx_mul Gt !mulmxA FFi mul1mx.
  by [].
clearbody W.
have -> : p_y p = f_y0 f + f_pe f by rewrite (sp_pe sp) addrC subrK.
rewrite (sp_y0 sp) (sp_H_cov_w sp) trmx_mul scw !(mulmxDr, mulmxDl) !mulmxA.
have -> : f_pe f = p_Z p *m f_Q0 f *m (p_Z p)^T *m W + p_H p *m p_cov_w p *m (p_H p)^T *m W
                   + p_Z p *m f_Q0 f *m Tn^T *m r by rewrite FW subrK.
by mx_abel.
Qed.

Notation osb := (@one_step_back M n nw).
Notation sback := (@smooth_back M n nw).

(* the transition equation of the period of [s], from the state [a_prev] of the previous period *)
Definition trans_eq (a_prev : 'cV[F]_n) (s : sper) : Prop :=
  let p := fp (sx s) in
  s_a (so s) = p_T p *m a_prev + p_K p + P_times (p_us p) (s_u (so s)) + v_term p.

Fixpoint sim_chain (a_prev : 'cV[F]_n) (l : seq sper) : Prop :=
  if l is s :: l' then trans_eq a_prev s /\ sim_chain (s_a (so s)) l' else True.

(* the measurement equations of the period of [s] on its observed rows *)
Definition meas_eq (s : sper) : Prop :=
  let p := fp (sx s) in
  p_Z p *m s_a (so s) + p_D p + p_H p *m s_w (so s) = p_y p.

Fixpoint all_meas (l : seq sper) : Prop :=
  if l is s :: l' then meas_eq s /\ all_meas l' else True.

Lemma sback_cons x fs :
  sback (x :: fs) = (mkSper x (osb x (sback fs).2).1 :: (sback fs).1, (osb x (sback fs).2).2).
Proof. by rewrite /=; case: (sback fs) => outs st; case: (osb x st). Qed.

(* C08_smooth_alt along a run *)
Fixpoint alt_all (fs : seq fper) : Prop :=
  if fs is x :: fs' then
    s_a (osb x (sback fs').2).1 = f_a1 (ff x) + f_Q1 (ff x) *m Tr (sback fs').2 /\ alt_all fs'
  else True.

(* the update pass (update_all): one_step_back without information from later periods returns the
   filtered state a1, and it reproduces the observed data as well *)
Lemma update_step a Q p (f : frec p) : step_spec a Q f ->
  s_a (osb (mkFper p f) None).1 = f_a1 f.
Proof. by move=> sp; rewrite (smooth_alt_step None sp) /Tr /= mulmx0 mulmx0 addr0. Qed.

Fixpoint all_update (l : seq sper) : Prop :=
  if l is s :: l' then (s_a (so s) = f_a1 (ff (sx s)) /\ meas_eq s) /\ all_update l' else True.

Local Opaque kf_step.

(* the period seen in deviations from a steady state abar: no constants, data minus steady data *)
Definition dev_period (abar : 'cV[F]_n) p : period :=
  @mkPeriod M n nw (p_ny p) (p_T p) 0 (p_us p) (p_v p) (p_Z p) (p_H p) 0 (p_cov_w p) (p_w0 p)
            (p_y p - (p_Z p *m abar + p_D p)).

(* level results minus steady state *)
Definition dev_frec abar p (f : frec p) : frec (dev_period abar p) :=
  @mkFrec M n nw (dev_period abar p) (f_a0 f - abar) (f_Q0 f) (f_y0 f - (p_Z p *m abar + p_D p))
          (f_F f) (f_Fi f) (f_Zt_Fi f) (f_G f) (f_Q1 f) (f_pe f) (f_a1 f - abar)
          (f_P_cov_u f) (f_H_cov_w f).
Definition dev_fper abar (x : fper) : fper := mkFper (dev_period abar (fp x)) (dev_frec abar (ff x)).
Definition dev_sout abar p (o : sout p) : sout (dev_period abar p) :=
  @mkSout M n nw (dev_period abar p) (s_a o - abar) (s_u o) (s_w o) (s_Q o).
Definition dev_sper abar (s : sper) : sper := mkSper (dev_fper abar (sx s)) (dev_sout abar (so s)).

Definition steady_of (abar : 'cV[F]_n) p : Prop := abar = p_T p *m abar + p_K p.
Fixpoint all_steady abar (ps : seq period) : Prop :=
  if ps is p :: ps' then steady_of abar p /\ all_steady abar ps' else True.

Lemma dev_step_eqs abar a Q p (f : frec p) : steady_of abar p ->
  step_eqs M a Q f -> step_eqs M (a - abar) Q (dev_frec abar f).
Proof.
move=> ss; case: f => a0 Q0 y0 F0 Fi ZF G Q1 pe a1 Pc Hc [/= EQ0 EF EFi Ea0 Ey0 EZF EG EQ1 Epe Ea1 EP EH].
split=> //=.   (* the covariance fields are unchanged; left: a0, y0, pe, a1 *)
- by rewrite Ea0 mulmxBr addr0 [in LHS]ss; case: (p_v p) => [v|]; mx_abel.
- by rewrite Ey0 mulmxBr addr0; mx_abel.
- by rewrite Epe opprB addrA subrK.
- by rewrite Ea1 addrAC.
Qed.

Lemma dev_step abar a Q p : steady_of abar p ->
  kstep (a - abar) Q (dev_period abar p) = dev_frec abar (kstep a Q p).
Proof. by move=> ss; apply: step_eqs_inj (kf_step_eqs M _ _ _) (dev_step_eqs ss (kf_step_eqs M _ _ _)). Qed.

Lemma dev_frec_a1 abar p (f : frec p) : f_a1 (dev_frec abar f) = f_a1 f - abar.
Proof. by []. Qed.
Lemma dev_frec_Q1 abar p (f : frec p) : f_Q1 (dev_frec abar f) = f_Q1 f.
Proof. by []. Qed.

Lemma dev_osb abar (x : fper) st :
  osb (dev_fper abar x) st = (dev_sout abar (osb x st).1, (osb x st).2).
Proof.
case: x => p f; rewrite /one_step_back /dev_fper /dev_sout /=.
case: ifP => _ /=; last by [].
by case: st => [[[N r] Tn]|] /=; rewrite addrAC.
Qed.

Lemma dev_krun abar a Q ps : all_steady abar ps ->
  krun (a - abar) Q [seq dev_period abar p | p <- ps] = [seq dev_fper abar x | x <- krun a Q ps].
Proof.
elim: ps a Q => [|p ps IH] a Q; first by [].
by case=> ss sss; rewrite map_cons !krun_cons map_cons dev_step // [f_a1 _]dev_frec_a1 [f_Q1 _]dev_frec_Q1 IH.
Qed.

Lemma dev_sback abar (fs : seq fper) :
  sback [seq dev_fper abar x | x <- fs] = ([seq dev_sper abar s | s <- (sback fs).1], (sback fs).2).
Proof.
elim: fs => [|x fs IH]; first by [].
by rewrite map_cons !sback_cons IH /= dev_osb.
Qed.

Lemma dev_update abar (fs : seq fper) :
  update_all [seq dev_fper abar x | x <- fs] = [seq dev_sper abar s | s <- update_all fs].
Proof.
rewrite /update_all; elim: fs => [|x fs IH]; first by [].
by rewrite /= -!/(map _ _) IH dev_osb.
Qed.

Lemma Lmap_dev A (g : fper -> A) abar (fs : seq fper) : (forall x, g (dev_fper abar x) = g x) ->
  List.map g [seq dev_fper abar x | x <- fs] = List.map g fs.
Proof. by move=> E; elim: fs => [|x fs IH] //=; rewrite E IH. Qed.

Lemma dev_likelihood abar b vs (fs : seq fper) :
  likelihood b [seq dev_fper abar x | x <- fs] = likelihood b fs
  /\ contributions vs [seq dev_fper abar x | x <- fs] = contributions vs fs.
Proof.
rewrite /likelihood /contributions.
rewrite (@Lmap_dev _ (@num_obs M n nw)); last by case.
rewrite (@Lmap_dev _ (@log_det_F M n nw)); last by case.
rewrite (@Lmap_dev _ (@pe_Fi_pe M n nw)); last by case.
by rewrite (@Lmap_dev _ (@contribution M n nw vs)); last by case.
Qed.

(* numpy.diag(std ** 2) is symmetric *)
Lemma cov_from_std_sym k (l : seq F) : is_sym (cov_from_std M k l).
Proof. by rewrite /is_sym /cov_from_std /=; apply/matrixP=> i j; rewrite !mxE eq_sym; case: eqP => // ->. Qed.

Section Mapping.
Variables nu nyf nxi : nat.
Variable s : solution M n nw nu nyf nxi.

Lemma gen_period_ok (d : pdata M n nw nu nyf) : ok_period (gen_period s d).
Proof. by split; exact: cov_from_std_sym. Qed.

(* C08_output_mapping: the values stored for the current-dated transition variables are the rows
   curr_xi_indexes of Ua alpha (and of Ua Q Ua' on the diagonal); the mapping is linear *)
Lemma xi_med_rows (a : 'cV[F]_n) : xi_med s a = mc_rows (so_curr_xi s) (so_Ua s *m a).
Proof. by rewrite /xi_med /= mc_rows_mul. Qed.

Lemma xi_med_entry (a : 'cV[F]_n) (i : 'I_(length (so_curr_xi s))) (r : 'I_nxi) j :
  nth 0%N (so_curr_xi s) i = r -> xi_med s a i j = (so_Ua s *m a) r j.
Proof. by move=> E; rewrite xi_med_rows (mc_rows_entry _ _ E). Qed.

Lemma xi_med_sub (a abar : 'cV[F]_n) : xi_med s (a - abar) = xi_med s a - xi_med s abar.
Proof. by rewrite /xi_med /= mulmxBr. Qed.

Lemma xi_var_entry (Q : 'M[F]_n) (i : 'I_(length (so_curr_xi s))) (r : 'I_nxi) :
  nth 0%N (so_curr_xi s) i = r ->
  let U := mc_rows (so_curr_xi s) (so_Ua s) in
  (U *m Q *m U^T) i i = (so_Ua s *m Q *m (so_Ua s)^T) r r.
Proof.
move=> E /=; rewrite -mc_rows_mul !mxE; apply: eq_bigr => l _.
by rewrite (mc_rows_entry _ _ E) 2![_^T _ _]mxE (mc_rows_entry _ _ E).
Qed.

Lemma output_mapping (a abar : 'cV[F]_n) (Q : 'M[F]_n) (i : 'I_(length (so_curr_xi s))) (r : 'I_nxi) :
  nth 0%N (so_curr_xi s) i = r ->
  [/\ xi_med s a = mc_rows (so_curr_xi s) (so_Ua s *m a),
      xi_med s a i ord0 = (so_Ua s *m a) r ord0,
      xi_med s (a - abar) = xi_med s a - xi_med s abar &
      let U := mc_rows (so_curr_xi s) (so_Ua s) in
      (U *m Q *m U^T) i i = (so_Ua s *m Q *m (so_Ua s)^T) r r].
Proof.
move=> E; split; [exact: xi_med_rows | exact: xi_med_entry | exact: xi_med_sub | exact: xi_var_entry].
Qed.

End Mapping.

End SmootherProofs.
