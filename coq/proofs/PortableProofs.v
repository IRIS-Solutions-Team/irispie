(* C20  The portable codec round-trips every well-formed model description. *)
From Coq Require Import String List Bool Ascii.
From Verif Require Import gen.PortableGen model.Portable.
Import ListNotations.
Open Scope string_scope.

Section Proofs.

Variable N : Type.

Notation mdesc := (mdesc N).
Notation value := (value N).

Lemma mapM_map : forall {A B} (g : A -> B) (f : B -> option A) (l : list A),
  (forall a, In a l -> f (g a) = Some a) -> mapM f (map g l) = Some l.
Proof.
  intros A B g f. induction l as [ | a l IH]; intros H; [reflexivity | ].
  cbn [map mapM]. rewrite (H a (or_introl eq_refl)). rewrite IH; [reflexivity | ].
  intros b Hb. apply H. right. assumption.
Qed.

Lemma qkind_roundtrip : forall k, qkind_of_code (qkind_code k) = Some k.
Proof. destruct k; reflexivity. Qed.

Lemma ekind_roundtrip : forall k, ekind_of_code (ekind_code k) = Some k.
Proof. destruct k; reflexivity. Qed.

(* the codes are pairwise distinct: decoding is injective on codes *)
Lemma qkind_code_inj : forall a b, qkind_code a = qkind_code b -> a = b.
Proof.
  intros a b H. assert (E : qkind_of_code (qkind_code a) = qkind_of_code (qkind_code b)) by (rewrite H; reflexivity).
  rewrite !qkind_roundtrip in E. injection E as E. exact E.
Qed.

Lemma quantity_roundtrip : forall q, dec_quantity N (enc_quantity N q) = Some q.
Proof.
  intros [k n l d a]. unfold dec_quantity, enc_quantity. cbn [q_kind q_name q_logly q_descr q_attr].
  rewrite qkind_roundtrip. destruct l as [b | ]; destruct d as [s | ]; reflexivity.
Qed.

Lemma equation_roundtrip : forall e, wf_equation e -> dec_equation N (enc_equation N e) = Some e.
Proof.
  intros [k dyn st d a] W. unfold wf_equation in W. cbn [e_steady e_dynamic] in W.
  unfold dec_equation, enc_equation. cbn [e_kind e_dynamic e_steady e_descr e_attr].
  rewrite ekind_roundtrip.
  destruct (String.eqb st dyn) eqn:E.
  - apply String.eqb_eq in E. subst st. destruct d; reflexivity.
  - cbn [dec_ostr].
    assert (Hne : String.eqb st "" = false).
    { apply String.eqb_neq. intros ->. destruct W as [W | W]; [congruence | ].
      subst dyn. rewrite String.eqb_refl in E. discriminate. }
    rewrite Hne. destruct d; reflexivity.
Qed.

(* without the guard the steady form is lost: "" is read back as "same as dynamic" *)
Lemma equation_roundtrip_needs_guard :
  exists e, dec_equation N (enc_equation N e) <> Some e.
Proof.
  exists (mkE ET "x=0" "" None ""). vm_compute. discriminate.
Qed.

Lemma value_roundtrip : forall v : value, dec_value N (enc_value N v) = Some v.
Proof. intros [[l | ] [c | ]]; reflexivity. Qed.

Lemma variant_roundtrip : forall vs, dec_variant N (enc_variant N vs) = Some vs.
Proof.
  intros vs. unfold dec_variant, enc_variant. apply mapM_map.
  intros [n v] _. cbn [fst snd]. rewrite value_roundtrip. reflexivity.
Qed.

Lemma context_roundtrip : forall ctx, dec_context N (JObj (map (fun k => (k, JNull)) ctx)) = Some ctx.
Proof.
  intros ctx. unfold dec_context. rewrite map_map. cbn [fst]. rewrite map_id. reflexivity.
Qed.

Theorem portable_roundtrip : forall m : mdesc, wf_mdesc N m -> decode N (encode N m) = Some m.
Proof.
  intros [d lin flat det qs es ctx vs] W. unfold wf_mdesc in W. cbn [d_equations] in W.
  unfold decode, encode.
  cbn [d_descr d_linear d_flat d_determ d_quantities d_equations d_context d_variants].
  unfold gen_key_format, gen_key_source, gen_key_variants, gen_key_description, gen_key_flags, gen_key_quantities,
    gen_key_equations, gen_key_context, gen_key_linear, gen_key_flat, gen_key_determ, gen_format.
  cbn [field lookup bind String.eqb Ascii.eqb Bool.eqb dec_bool dec_list].
  rewrite (mapM_map (enc_quantity N) (dec_quantity N) qs) by (intros q _; apply quantity_roundtrip).
  cbn [bind].
  rewrite (mapM_map (enc_equation N) (dec_equation N) es) by (intros e He; apply equation_roundtrip, W, He).
  cbn [bind]. rewrite context_roundtrip. cbn [bind].
  rewrite (mapM_map (enc_variant N) (dec_variant N) vs) by (intros v _; apply variant_roundtrip).
  reflexivity.
Qed.

(* a wrong format tag is rejected *)
Lemma decode_rejects_other_format : forall f src vars, f <> gen_format ->
  decode N (JObj [(gen_key_format, JStr f); (gen_key_source, src); (gen_key_variants, vars)]) = None.
Proof.
  intros f src vars H. unfold decode. cbn [field lookup]. rewrite String.eqb_refl. cbn [bind].
  apply String.eqb_neq in H. rewrite H. reflexivity.
Qed.

(* every kind is listed exactly once, whatever order the source uses *)
Lemma all_qkinds_complete : forall k, length (filter (qkind_eqb k) all_qkinds) = 1.
Proof. destruct k; reflexivity. Qed.

(* ------------------------------------------------------------------ order of quantities *)

Notation pk := (fun k => fun q : quantity => qkind_eqb (q_kind q) k).

Lemma qkind_eqb_eq : forall a b, qkind_eqb a b = true <-> a = b.
Proof. intros a b. split; [destruct a, b; (reflexivity || discriminate) | intros ->; destruct b; reflexivity]. Qed.

Lemma filter_filter_kind : forall k k' (qs : list quantity),
  filter (pk k) (filter (pk k') qs) = if qkind_eqb k' k then filter (pk k) qs else [].
Proof.
  intros k k'. induction qs as [ | q qs IH].
  - destruct (qkind_eqb k' k); reflexivity.
  - cbn [filter]. destruct (qkind_eqb (q_kind q) k') eqn:E1.
    + apply qkind_eqb_eq in E1. cbn [filter]. rewrite IH. rewrite E1.
      destruct (qkind_eqb k' k) eqn:E2; [reflexivity | reflexivity].
    + rewrite IH. destruct (qkind_eqb k' k) eqn:E2; [ | reflexivity].
      apply qkind_eqb_eq in E2. subst k'. rewrite E1. reflexivity.
Qed.

Lemma filter_by_kind : forall k qs, filter (pk k) (by_kind qs) = filter (pk k) qs.
Proof.
  intros k qs. unfold by_kind, all_qkinds. cbn [flat_map]. rewrite !filter_app, !filter_filter_kind.
  destruct k; cbn [qkind_eqb filter app]; rewrite ?app_nil_r; reflexivity.
Qed.

(* listing kind by kind is idempotent: a model rebuilt from its portable lists its quantities in the same order *)
Theorem by_kind_idempotent : forall qs, by_kind (by_kind qs) = by_kind qs.
Proof.
  intros qs. unfold by_kind at 1 3. unfold all_qkinds. cbn [flat_map].
  rewrite !filter_by_kind. reflexivity.
Qed.

Theorem by_kind_same_elements : forall qs q, In q (by_kind qs) <-> In q qs.
Proof.
  intros qs q. unfold by_kind. rewrite in_flat_map. split.
  - intros [k [_ H]]. apply filter_In in H. tauto.
  - intros H. exists (q_kind q). split.
    + unfold all_qkinds. destruct (q_kind q); cbn; tauto.
    + apply filter_In. split; [assumption | apply qkind_eqb_eq; reflexivity].
Qed.

End Proofs.

(* non-vacuity: a concrete description (numbers as strings) *)
Example portable_example :
  let m := mkD string "demo" true false false
             [mkQ QX "x" (Some false) (Some "level") ""; mkQ QU "ex" None None ""; mkQ QP "rho" None (Some "") ""]
             [mkE ET "x=rho*x[-1]+(ex+ant_ex)" "x=rho*x[-1]" (Some "") ""; mkE EM "ox=x" "ox=x" None ""]
             ["f"]
             [[("x", mkV string (Some "1.5") (Some "0")); ("rho", mkV string (Some "0.8") None)]] in
  decode string (encode string m) = Some m.
Proof. vm_compute. reflexivity. Qed.
