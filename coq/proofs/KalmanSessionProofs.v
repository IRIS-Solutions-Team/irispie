(* C03 / C08: the model object as a state machine (model/KalmanSession.v).

   1. session_refines: for EVERY operation history, everything a session returns (filter and simulate calls,
      both modes, any number of variants, any data broadcast) equals what the cache-free, solution-free
      specification machine returns, whose answer to a call is by definition a function of the variant's
      current values, the values it was last solved for, the mode and the variant's data only.
      (=> no dependence on earlier calls: stale solutions / stale memo lists are excluded.)
   2. zip_stream_nth: a call on a model with any number of variants is pointwise in the variants (props/C08.v).
   3. solved_is_fresh: in any reachable state, a variant that is solved for its current values answers a
      call exactly as a freshly built, freshly solved single-variant model with those values.
   The black boxes (assign1, solve1, devsol, expand, kf, sim) are arbitrary functions; no hypothesis about them is
   needed, because the expansion is always taken from the level solution (as the code does). *)
From Coq Require Import List Arith Bool Lia.
From Verif Require Import model.KalmanSession.
Import ListNotations.

Section Stream.
Variables A B X : Type.

Lemma zip_stream_length (g : X -> A -> B) vs xs d : length (zip_stream g vs xs d) = length vs.
Proof. revert xs d; induction vs as [|v vs IH]; intros [|x xs] d; cbn; auto. Qed.

Lemma last_cons_default (x : X) xs d : last (x :: xs) d = last xs x.
Proof.
  revert x d; induction xs as [|y ys IH]; intros x d; [reflexivity|].
  exact (eq_trans (IH y d) (eq_sym (IH y x))).
Qed.

Lemma zip_stream_nth (g : X -> A -> B) vs xs d k (da : A) (db : B) :
  k < length vs -> nth k (zip_stream g vs xs d) db = g (etl xs d k) (nth k vs da).
Proof.
  revert xs d k; induction vs as [|v vs IH]; intros xs d k Hk; [cbn in Hk; lia|].
  destruct xs as [|x xs]; destruct k as [|k]; cbn [zip_stream nth].
  - reflexivity.
  - rewrite IH by (cbn in Hk; lia). unfold etl. destruct k; reflexivity.
  - reflexivity.
  - rewrite IH by (cbn in Hk; lia). unfold etl. cbn [nth]. rewrite last_cons_default. reflexivity.
Qed.

Lemma map_zip_stream {C : Type} (g : X -> A -> B) (f : B -> C) vs xs d :
  map f (zip_stream g vs xs d) = zip_stream (fun x a => f (g x a)) vs xs d.
Proof. revert xs d; induction vs as [|v vs IH]; intros [|x xs] d; cbn; try rewrite IH; auto. Qed.
End Stream.

Lemma F2_length {A B} (R : A -> B -> Prop) l l' : Forall2 R l l' -> length l = length l'.
Proof. induction 1; cbn; auto. Qed.

Lemma Forall2_zip_stream {A A' B B' X : Type} (R : A -> A' -> Prop) (Q : B -> B' -> Prop)
    (g : X -> A -> B) (g' : X -> A' -> B') :
  (forall x a a', R a a' -> Q (g x a) (g' x a')) ->
  forall vs vs', Forall2 R vs vs' -> forall xs d, Forall2 Q (zip_stream g vs xs d) (zip_stream g' vs' xs d).
Proof.
  intros H vs vs' F; induction F as [|a a' vs vs' Ha F IH]; intros [|x xs] d; cbn; constructor; auto.
Qed.

Lemma zip_stream_ext_rel {A A' B X : Type} (R : A -> A' -> Prop) (g : X -> A -> B) (g' : X -> A' -> B) :
  (forall x a a', R a a' -> g x a = g' x a') ->
  forall vs vs', Forall2 R vs vs' -> forall xs d, zip_stream g vs xs d = zip_stream g' vs' xs d.
Proof.
  intros H vs vs' F; induction F as [|a a' vs vs' Ha F IH]; intros [|x xs] d; cbn; try reflexivity;
    (rewrite (H _ _ _ Ha); f_equal; apply IH).
Qed.

Section Session.
Variables P X S E D O : Type.
Variable assign1 : X -> P -> P.
Variable solve1 : P -> S.
Variable devsol : S -> S.
Variable expand : bool -> S -> nat -> E.
Variable fwd_of : D -> option nat.
Variable kf : S -> P -> list E -> D -> O.
Variable sim : S -> P -> list E -> D -> O.

Notation variant := (variant P S E).
Notation avariant := (avariant P).
Notation rel := (rel P S E solve1 expand).
Notation canon := (canon S E expand).
Notation extend := (extend S E expand).
Notation use_cache := (use_cache S E expand).
Notation call_variant := (call_variant P S E D O devsol expand fwd_of kf sim).
Notation call_model := (call_model P S E D O devsol expand fwd_of kf sim).
Notation acall_variant := (acall_variant P S E D O solve1 devsol expand fwd_of kf sim).
Notation spec_out := (spec_out P S E D O solve1 devsol expand fwd_of kf sim).
Notation step := (step P X S E D O assign1 solve1 devsol expand fwd_of kf sim).
Notation astep := (astep P X S E D O assign1 solve1 devsol expand fwd_of kf sim).
Notation run := (run P X S E D O assign1 solve1 devsol expand fwd_of kf sim).
Notation arun := (arun P X S E D O assign1 solve1 devsol expand fwd_of kf sim).
Notation fresh := (fresh P S E solve1).

Lemma canon_nil b s : canon b s [].
Proof. reflexivity. Qed.

Lemma extend_canon b s cache k :
  canon b s cache ->
  canon b s (extend b s cache k) /\ firstn k (extend b s cache k) = map (expand b s) (seq 0 k).
Proof.
  unfold KalmanSession.canon, KalmanSession.extend. intros Hc.
  set (n := length cache) in *.
  assert (Hall : cache ++ map (expand b s) (seq n (k - n)) = map (expand b s) (seq 0 (n + (k - n)))).
  { rewrite seq_app, map_app, <- Hc. reflexivity. }
  rewrite Hall. split.
  - rewrite map_length, seq_length. reflexivity.
  - destruct (le_lt_dec k n) as [Hle|Hlt].
    + replace (n + (k - n)) with (k + (n - k)) by lia.
      rewrite seq_app, map_app, firstn_app, map_length, seq_length.
      replace (k - k) with 0 by lia. rewrite firstn_O, app_nil_r.
      apply firstn_all2. rewrite map_length, seq_length. lia.
    + replace (n + (k - n)) with k by lia.
      apply firstn_all2. rewrite map_length, seq_length. lia.
Qed.

Lemma call_variant_refines b dev d (v : variant) (a : avariant) :
  rel v a ->
  rel (fst (call_variant b dev d v)) a /\ snd (call_variant b dev d v) = acall_variant b dev d a.
Proof.
  intros [Hp Hs]. unfold KalmanSession.call_variant, KalmanSession.acall_variant.
  destruct (v_sol _ _ _ v) as [c|] eqn:Ev; destruct (a_solved _ a) as [ps|] eqn:Ea; try contradiction.
  2:{ cbn. split; [split; [assumption|rewrite Ev, Ea; exact I]|reflexivity]. }
  destruct Hs as (Hsol & Hsq & Htri).
  unfold KalmanSession.use_cache, KalmanSession.spec_out.
  destruct (fwd_of d) as [k|]; cbn [fst snd gets_solution option_map v_sol v_par].
  - destruct b; cbn [c_s c_sq c_tri].
    + destruct (extend_canon true _ _ k Htri) as [Hc Hf].
      split; [split; [assumption|cbn; rewrite Ea; auto]|].
      rewrite Hf, Hsol, Hp. destruct dev; reflexivity.
    + destruct (extend_canon false _ _ k Hsq) as [Hc Hf].
      split; [split; [assumption|cbn; rewrite Ea; auto]|].
      rewrite Hf, Hsol, Hp. destruct dev; reflexivity.
  - split; [split; [assumption|cbn; rewrite Ea; auto]|].
    rewrite Hsol, Hp. destruct b, dev; reflexivity.
Qed.

Lemma call_model_refines b dev vs avs ds dd :
  Forall2 rel vs avs ->
  Forall2 rel (map fst (call_model b dev vs ds dd)) avs /\
  map snd (call_model b dev vs ds dd) = zip_stream (acall_variant b dev) avs ds dd.
Proof.
  unfold KalmanSession.call_model. intros F. rewrite !map_zip_stream. split.
  - revert ds dd; induction F; intros [|d ds] dd; cbn; constructor; auto; apply call_variant_refines; assumption.
  - apply (zip_stream_ext_rel rel); [|assumption]. intros d v a H; apply call_variant_refines, H.
Qed.

Lemma Forall2_last {A B} (R : A -> B -> Prop) l l' d d' :
  Forall2 R l l' -> R d d' -> R (last l d) (last l' d').
Proof. intros F; revert d d'; induction F as [|x y l l' Hxy F IH]; intros d d' Hd; [assumption|].
  destruct F; [assumption|]. apply IH. assumption. Qed.

Lemma Forall2_firstn {A B} (R : A -> B -> Prop) n l l' : Forall2 R l l' -> Forall2 R (firstn n l) (firstn n l').
Proof. intros F; revert n; induction F; intros [|n]; cbn; constructor; auto. Qed.

Lemma Forall2_repeat {A B} (R : A -> B -> Prop) x y n : R x y -> Forall2 R (repeat x n) (repeat y n).
Proof. intros H; induction n; cbn; constructor; auto. Qed.

Lemma alter_refines {A B} (R : A -> B -> Prop) n l l' :
  Forall2 R l l' ->
  match alter n l, alter n l' with
  | Some r, Some r' => Forall2 R r r'
  | None, None => True
  | _, _ => False
  end.
Proof.
  intros F. unfold alter. destruct (n <? 1); [exact I|].
  pose proof (F2_length _ _ _ F) as Hlen.
  destruct F as [|x y l l' Hxy F]; [exact I|].
  rewrite <- Hlen. destruct (n <? length (x :: l)).
  - apply Forall2_firstn. constructor; assumption.
  - apply Forall2_app; [constructor; assumption|].
    apply Forall2_repeat. apply Forall2_last; [constructor; assumption|assumption].
Qed.

Lemma step_refines o vs avs :
  Forall2 rel vs avs ->
  snd (step o vs) = snd (astep o avs) /\
  match fst (step o vs), fst (astep o avs) with
  | Some r, Some r' => Forall2 rel r r'
  | None, None => True
  | _, _ => False
  end.
Proof.
  intros F. destruct o as [xs d| |n|dev ds dd|dev ds dd]; cbn [step astep KalmanSession.step KalmanSession.astep fst snd].
  - split; [reflexivity|].
    apply (Forall2_zip_stream rel rel); [|assumption].
    intros x v a [Hp Hs]. split; [cbn; rewrite Hp; reflexivity|exact Hs].
  - split; [reflexivity|].
    induction F as [|v a vs avs [Hp Hs] F IH]; cbn; constructor; [|assumption].
    split; [exact Hp|]. cbn. rewrite Hp. repeat split; reflexivity.
  - split; [reflexivity|]. apply alter_refines; assumption.
  - destruct (call_model_refines true dev vs avs ds dd F) as [H1 H2]. split; assumption.
  - destruct (call_model_refines false dev vs avs ds dd F) as [H1 H2]. split; assumption.
Qed.

Theorem session_refines ops : forall vs avs,
  Forall2 rel vs avs ->
  fst (run ops vs) = fst (arun ops avs) /\
  match snd (run ops vs), snd (arun ops avs) with
  | Some r, Some r' => Forall2 rel r r'
  | None, None => True
  | _, _ => False
  end.
Proof.
  induction ops as [|o ops IH]; intros vs avs F; [split; [reflexivity|exact F]|].
  cbn [KalmanSession.run KalmanSession.arun].
  destruct (step_refines o vs avs F) as [Hout Hst].
  destruct (step o vs) as [[r|] out]; destruct (astep o avs) as [[r'|] out']; cbn [fst snd] in *;
    try contradiction; subst out'.
  - destruct (IH r r' Hst) as [H1 H2]. cbn [fst snd]. rewrite H1. split; [reflexivity|assumption].
  - split; [reflexivity|exact I].
Qed.

(* a freshly built and solved model is related to its abstract twin *)
Lemma fresh_rel p : Forall2 rel (fresh p) [mkAv P p (Some p)].
Proof. constructor; [|constructor]. split; [reflexivity|]. cbn. repeat split; reflexivity. Qed.

(* an unsolved single-variant model *)
Lemma unsolved_rel p : Forall2 rel [mkVariant P S E p None] [mkAv P p None].
Proof. constructor; [|constructor]. split; [reflexivity|exact I]. Qed.

Theorem solved_is_fresh b dev (vs : list variant) (avs : list avariant) ds dd k p :
  Forall2 rel vs avs ->
  k < length vs ->
  nth k avs (mkAv P p None) = mkAv P p (Some p) ->
  nth k (map snd (call_model b dev vs ds dd)) None
  = nth 0 (map snd (call_model b dev (fresh p) [etl ds dd k] dd)) None.
Proof.
  intros F Hk Ha.
  destruct (call_model_refines b dev vs avs ds dd F) as [_ H]. rewrite H.
  destruct (call_model_refines b dev (fresh p) _ [etl ds dd k] dd (fresh_rel p)) as [_ H']. rewrite H'.
  rewrite (zip_stream_nth _ _ _ _ _ _ _ k (mkAv P p None) None) by (rewrite <- (F2_length _ _ _ F); exact Hk).
  rewrite Ha. reflexivity.
Qed.

(* solve() leaves every variant solved for its current values (specification machine) *)
Lemma astep_solve_all_solved (avs : list avariant) r :
  fst (astep (OSolve X D) avs) = Some r -> Forall (fun a => a_solved P a = Some (a_par P a)) r.
Proof.
  cbn. intros H; injection H as <-. induction avs; cbn; constructor; auto.
Qed.

End Session.

(* non-vacuity: a concrete session on small carriers *)
Module Example.
(* values = a number; solve1 p = 10 p; deviation = +1; expansion matrices (basis, solution, k);
   the filter returns everything it was handed *)
Definition kfx (s p : nat) (ex : list (bool * nat * nat)) (d : nat * option nat) := (s, p, ex, fst d).
Definition ops : list (op nat (nat * option nat)) :=
  [ OAlter _ _ 2; OAssign _ _ [3; 4] 4; OSolve _ _; OFilter _ _ true [(7, Some 2)] (7, Some 2);
    OAssign _ _ [5; 6] 6; OSolve _ _; OSimulate _ _ false [(8, Some 1); (9, Some 3)] (9, Some 3);
    OFilter _ _ true [(7, Some 3)] (7, Some 3); OAlter _ _ 3; OFilter _ _ false [(7, None)] (7, None) ].
Definition runx := run nat nat nat (bool * nat * nat) (nat * option nat) _
                       (fun x _ => x) (fun p => 10 * p) Datatypes.S (fun b s k => (b, s, k)) snd kfx kfx.
Definition arunx := arun nat nat nat (bool * nat * nat) (nat * option nat) _
                       (fun x _ => x) (fun p => 10 * p) Datatypes.S (fun b s k => (b, s, k)) snd kfx kfx.

Example session_nonvacuous :
  fst (runx ops (fresh nat nat _ (fun p => 10 * p) 1)) = fst (arunx ops [mkAv nat 1 (Some 1)]) /\
  (* after the second solve, the deviation-mode filter sees the NEW solutions 50 / 60 (+1), three expansion
     matrices of the new level solution, and each variant its own *)
  nth 7 (fst (runx ops (fresh nat nat _ (fun p => 10 * p) 1))) []
  = [Some (51, 5, [(true, 50, 0); (true, 50, 1); (true, 50, 2)], 7);
     Some (61, 6, [(true, 60, 0); (true, 60, 1); (true, 60, 2)], 7)] /\
  length (nth 9 (fst (runx ops (fresh nat nat _ (fun p => 10 * p) 1))) []) = 3.
Proof. vm_compute. repeat split. Qed.
End Example.
