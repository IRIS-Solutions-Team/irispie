(* C01  The list of parameter variants never holds one Variant object twice, whatever the history of alter_num_variants /
   assign calls; therefore a per-variant assignment gives every variant ITS OWN value (and the steady state and the
   first-order solution computed per variant belong to that variant's parameters).  Induction over the history; the
   list-filling statement is the one regenerated from has_variants.py (gen/VariantListGen.v). *)
From Coq Require Import List ZArith Bool Arith Lia.
From Verif Require Import lib.VarStmt gen.VariantListGen model.VariantList.
Import ListNotations.

(* statements that evaluate a COPYING element expression once per new variant *)
Definition alias_free (s : vstmt) : bool :=
  match s with SForAppend ECopyLast => true | _ => false end.

Definition wf (st : vstate) : Prop :=
  NoDup (vars st) /\ Forall (fun l => l < next st) (vars st) /\ vars st <> [].

(* ------------------------------------------------------------------ lists *)
Lemma NoDup_snoc (l : list nat) x : NoDup l -> ~ In x l -> NoDup (l ++ [x]).
Proof.
induction l as [|a l IH]; simpl; intros nd ni.
- constructor; [intros [] | constructor].
- inversion nd as [|? ? na nd']; subst. constructor.
  + rewrite in_app_iff; simpl. intros [h | [h | []]]; [tauto | subst; tauto].
  + apply IH; tauto.
Qed.

Lemma In_firstn (l : list nat) : forall n x, In x (firstn n l) -> In x l.
Proof.
induction l as [|a l IH]; intros [|n] x; simpl; try tauto.
intros [h | h]; [left; assumption | right; eapply IH; eassumption].
Qed.

Lemma NoDup_firstn (l : list nat) : forall n, NoDup l -> NoDup (firstn n l).
Proof.
induction l as [|a l IH]; intros [|n] nd; simpl; try constructor.
- inversion nd; subst. intro h; apply In_firstn in h; tauto.
- inversion nd; subst. apply IH; assumption.
Qed.

(* ------------------------------------------------------------------ expansion *)
Lemma append_one_copy_wf st : wf st -> wf (append_one ECopyLast st).
Proof.
intros (nd & lt & ne). unfold append_one; cbn. repeat split; cbn.
- apply NoDup_snoc; [assumption|]. intro h. rewrite Forall_forall in lt. apply lt in h. lia.
- apply Forall_forall. intros x h. apply in_app_or in h. rewrite Forall_forall in lt.
  destruct h as [h | [h | []]]; [apply lt in h; lia | subst; lia].
- destruct (vars st); simpl; discriminate.
Qed.

Lemma iter_append_wf k : forall st, wf st -> wf (iter_append k ECopyLast st).
Proof. induction k as [|k IH]; simpl; intros st h; [assumption | apply IH, append_one_copy_wf, h]. Qed.

Lemma exec_expand_wf s n st : alias_free s = true -> wf st -> wf (exec_expand s n st).
Proof. destruct s as [[|]|[|]]; simpl; try discriminate. intros _ h. apply iter_append_wf, h. Qed.

Lemma exec_shrink_wf s n st : n <> 0 -> wf st -> wf (exec_shrink s n st).
Proof.
intros n0 (nd & lt & ne). destruct s. unfold exec_shrink; repeat split; cbn.
- apply NoDup_firstn, nd.
- apply Forall_forall. intros x h. apply In_firstn in h. rewrite Forall_forall in lt. apply lt, h.
- destruct (vars st); [tauto|]. destruct n; [tauto | simpl; discriminate].
Qed.

Lemma alter_wf n st : alias_free expand_stmt = true -> wf st -> wf (alter n st).
Proof.
intros af h. unfold alter.
destruct (Nat.eqb_spec n 0); [assumption|].
destruct (Nat.ltb n (length (vars st))); [apply exec_shrink_wf; assumption|].
destruct (Nat.ltb (length (vars st)) n); [apply exec_expand_wf; assumption | assumption].
Qed.

(* ------------------------------------------------------------------ assignment *)
Section Assign.
Variables (name : nat) (vals : list Z).

Lemma write_frame l v st : vars (write l name v st) = vars st /\ next (write l name v st) = next st.
Proof. split; reflexivity. Qed.

Lemma assign_from_frame : forall ls i st,
  vars (assign_from i ls name vals st) = vars st /\ next (assign_from i ls name vals st) = next st.
Proof.
induction ls as [|l ls IH]; simpl; intros i st; [split; reflexivity|].
destruct (IH (S i) (match value_for vals i with Some v => write l name v st | None => st end)) as [e1 e2].
rewrite e1, e2. destruct (value_for vals i); split; reflexivity.
Qed.

Lemma assign_from_notin : forall ls i st l, ~ In l ls -> heap (assign_from i ls name vals st) l = heap st l.
Proof.
induction ls as [|a ls IH]; simpl; intros i st l ni; [reflexivity|].
rewrite IH by tauto. destruct (value_for vals i); [|reflexivity].
cbn. destruct (Nat.eqb_spec l a); [subst; tauto | reflexivity].
Qed.

Lemma assign_from_hit : forall ls i st j v, NoDup ls -> j < length ls -> value_for vals (i + j) = Some v ->
  heap (assign_from i ls name vals st) (nth j ls 0) name = v.
Proof.
induction ls as [|a ls IH]; simpl; intros i st j v nd lt hv; [lia|].
inversion nd as [|? ? na nd']; subst. destruct j as [|j].
- rewrite assign_from_notin by assumption. rewrite Nat.add_0_r in hv. rewrite hv. cbn.
  rewrite !Nat.eqb_refl. reflexivity.
- apply IH; [assumption | lia |]. replace (S i + j) with (i + S j) by lia. assumption.
Qed.

Lemma assign_from_other_name : forall ls i st l nm, nm <> name ->
  heap (assign_from i ls name vals st) l nm = heap st l nm.
Proof.
induction ls as [|a ls IH]; simpl; intros i st l nm ne; [reflexivity|].
rewrite IH by assumption. destruct (value_for vals i); [|reflexivity].
cbn. destruct (Nat.eqb_spec l a); [subst|reflexivity].
destruct (Nat.eqb_spec nm name); [tauto | reflexivity].
Qed.

Lemma assign_wf st : wf st -> wf (assign name vals st).
Proof.
unfold wf, assign. destruct (assign_from_frame (vars st) 0 st) as [e1 e2]. rewrite e1, e2. tauto.
Qed.

(* every variant reads back ITS value of a per-variant assignment *)
Theorem assign_reads_own st i v : wf st -> i < length (vars st) -> value_for vals i = Some v ->
  read (assign name vals st) i name = v.
Proof.
intros (nd & _ & _) lt hv. unfold read, assign.
destruct (assign_from_frame (vars st) 0 st) as [e1 _]. rewrite e1.
apply assign_from_hit; assumption.
Qed.

Theorem assign_keeps_other_names st i nm : nm <> name -> read (assign name vals st) i nm = read st i nm.
Proof.
intros ne. unfold read, assign.
destruct (assign_from_frame (vars st) 0 st) as [e1 _]. rewrite e1.
apply assign_from_other_name, ne.
Qed.

End Assign.

Lemma value_for_exact vals i : i < length vals -> value_for vals i = Some (nth i vals 0%Z).
Proof.
destruct vals as [|a r]; simpl; intros lt; [lia|].
f_equal. replace (Nat.min i (length r - 0)) with i by lia. reflexivity.
Qed.

(* ------------------------------------------------------------------ histories *)
Lemma step_wf st o : alias_free expand_stmt = true -> wf st -> wf (step st o).
Proof. intros af h. destruct o; simpl; [apply alter_wf | apply assign_wf]; assumption. Qed.

Lemma run_wf ops : forall st, alias_free expand_stmt = true -> wf st -> wf (run ops st).
Proof.
unfold run. induction ops as [|o ops IH]; simpl; intros st af h; [assumption|].
apply IH; [assumption | apply step_wf; assumption].
Qed.

Lemma init_wf : wf init.
Proof.
unfold wf, init; cbn. repeat split.
- constructor; [intros [] | constructor].
- constructor; [lia | constructor].
- discriminate.
Qed.

(* the generated statement (gen/VariantListGen.v) copies once per new variant *)
Lemma expand_stmt_alias_free : alias_free expand_stmt = true.
Proof. reflexivity. Qed.

Theorem variants_nonempty (ops : list vop) : vars (run ops init) <> [].
Proof. apply (run_wf ops init expand_stmt_alias_free init_wf). Qed.

(* `self._variants += [self._variants[-1].copy()] * count` puts ONE object into the list count times: the value assigned
   to the last variant then shows up in the middle one *)
Example extend_repeat_last_wins :
  read (assign 0 [5; 6; 7]%Z (exec_expand (SExtendRepeat ECopyLast) 3 init)) 1 0 = 7%Z.
Proof. reflexivity. Qed.

Example history_nonvacuous :
  let st := run [OAssign 0 [4%Z]; OAlter 4; OAssign 0 [5; 6; 7; 8]%Z; OAlter 3; OAlter 5; OAssign 1 [1; 2]%Z] init in
  (length (vars st) = 5 /\ map (fun i => read st i 0) [0; 1; 2; 3; 4] = [5; 6; 7; 7; 7]%Z
   /\ map (fun i => read st i 1) [0; 1; 2; 3; 4] = [1; 2; 2; 2; 2]%Z).
Proof. repeat split; reflexivity. Qed.
