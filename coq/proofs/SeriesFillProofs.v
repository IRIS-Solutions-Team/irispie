(* C10: pointwise (total-map) specification of fill_missing of model/SeriesOps.v over a contiguous span
   (the whole series, or an explicit range of periods), for every carrier. *)
From Coq Require Import ZArith List Bool Lia.
From Verif Require Import lib.Arith model.Series model.SeriesOps proofs.SeriesProofs.
Import ListNotations.
Open Scope Z_scope.

Section FillProofs.
Variable A : Arith.
Notation V := (car A).
Notation series := (series A).
Hypothesis miss_law : forall x : V, is_miss A x = true -> x = miss A.

(* variant c of s over the periods a..b *)
Definition col_span (s : series) (a b : Z) (c : nat) : list V := map (fun u => cell A s u c) (zrange a (b + 1)).

(* the periods fill_missing works on *)
Definition fill_dates (span : option (list Z)) (s : series) : list Z :=
  match span with Some d => d | None => span_list A s end.

Lemma transpose_as_map (cols : list (list V)) a b :
  transpose_cols A cols (length (zrange a (b + 1)))
  = map (fun u => map (fun c => nth (Z.to_nat (u - a)) c (miss A)) cols) (zrange a (b + 1)).
Proof.
  unfold transpose_cols, zrange. rewrite map_length, seq_length, map_map. apply map_ext. intros i.
  apply map_ext. intros c. f_equal. lia.
Qed.

(* rows: inside the filled range every variant is the filled column at the period's position; every other
   period keeps its row *)
Theorem fill_missing_rows fr k span (s : series) a b t : WF A s ->
  fill_dates span s = zrange a (b + 1) ->
  row_at A (fill_missing A fr k span s) t
  = if (a <=? t) && (t <=? b)
    then map (fun c => nth (Z.to_nat (t - a)) (fill_col A k (zrange a (b + 1)) c (col_span s a b c)) (miss A))
             (seq 0 (s_nv s))
    else row_at A s t.
Proof.
  intros Hwf Hd. unfold fill_missing. fold (fill_dates span s). rewrite Hd.
  rewrite row_at_trim by (try assumption; now apply set_data_WF).
  rewrite transpose_as_map, row_at_set_range by (assumption || intros; now rewrite !map_length, seq_length).
  destruct (andb _ _); [|reflexivity].
  rewrite map_map. apply map_ext. intros c. do 2 f_equal.
  unfold col_span, col_of, get_data. rewrite map_map. reflexivity.
Qed.

Theorem fill_missing_outside fr k span (s : series) a b t : WF A s ->
  fill_dates span s = zrange a (b + 1) -> ~ (a <= t <= b) ->
  row_at A (fill_missing A fr k span s) t = row_at A s t.
Proof.
  intros Hwf Hd Ht. rewrite (fill_missing_rows fr k span s a b t Hwf Hd).
  destruct (Z.leb_spec a t); destruct (Z.leb_spec t b); simpl; try reflexivity. lia.
Qed.

Lemma fill_missing_cell fr k span (s : series) a b t c : WF A s ->
  fill_dates span s = zrange a (b + 1) -> a <= t <= b -> (c < s_nv s)%nat ->
  cell A (fill_missing A fr k span s) t c
  = nth (Z.to_nat (t - a)) (fill_col A k (zrange a (b + 1)) c (col_span s a b c)) (miss A).
Proof.
  intros Hwf Hd Ht Hc. unfold cell at 1. rewrite (fill_missing_rows fr k span s a b t Hwf Hd).
  destruct (Z.leb_spec a t); [|lia]. destruct (Z.leb_spec t b); [|lia]. simpl.
  now rewrite nth_map_seq.
Qed.

(* a period of the range a.. is a + i for the position i it has in the column: stating periods this way keeps
   Z.to_nat out of the arithmetic below *)
Lemma offset_ex a t : a <= t -> exists i, t = a + Z.of_nat i.
Proof. intros H. exists (Z.to_nat (t - a)). lia. Qed.

Lemma fill_missing_at fr k span (s : series) a b i c : WF A s ->
  fill_dates span s = zrange a (b + 1) -> a + Z.of_nat i <= b -> (c < s_nv s)%nat ->
  cell A (fill_missing A fr k span s) (a + Z.of_nat i) c
  = nth i (fill_col A k (zrange a (b + 1)) c (col_span s a b c)) (miss A).
Proof.
  intros Hwf Hd Hi Hc. rewrite (fill_missing_cell fr k span s a b) by (assumption || lia).
  now replace (Z.to_nat (a + Z.of_nat i - a)) with i by lia.
Qed.

Lemma col_span_length s a b c : length (col_span s a b c) = Z.to_nat (b + 1 - a).
Proof. unfold col_span. now rewrite map_length, zrange_length. Qed.

Lemma col_span_nth s a b c i : (i < Z.to_nat (b + 1 - a))%nat ->
  nth i (col_span s a b c) (miss A) = cell A s (a + Z.of_nat i) c.
Proof.
  intros Hi. unfold col_span. rewrite nth_map_in with (d' := 0) by (now rewrite zrange_length).
  now rewrite zrange_nth.
Qed.

Lemma nth_combine_seq (col : list V) i : (i < length col)%nat ->
  nth i (combine (seq 0 (length col)) col) (O, miss A) = (i, nth i col (miss A)).
Proof. intros Hi. rewrite combine_nth by (now rewrite seq_length). now rewrite seq_nth. Qed.

Lemma nth_map_combine_seq {T} (g : nat * V -> T) (col : list V) i d : (i < length col)%nat ->
  nth i (map g (combine (seq 0 (length col)) col)) d = g (i, nth i col (miss A)).
Proof.
  intros Hi. rewrite nth_map_in with (d' := (O, miss A)) by (now rewrite combine_length, seq_length, Nat.min_id).
  now rewrite nth_combine_seq.
Qed.

Lemma obs_gen (col : list V) a :
  map fst (filter (fun p => is_obs A (snd p)) (combine (seq a (length col)) col))
  = filter (fun j => is_obs A (nth (j - a) col (miss A))) (seq a (length col)).
Proof.
  revert a. induction col as [|x col IH]; intros a; [reflexivity|].
  cbn [length seq combine filter snd]. rewrite Nat.sub_diag. change (nth 0 (x :: col) (miss A)) with x.
  assert (Ht : filter (fun j => is_obs A (nth (j - a) (x :: col) (miss A))) (seq (S a) (length col))
               = filter (fun j => is_obs A (nth (j - S a) col (miss A))) (seq (S a) (length col))).
  { apply filter_ext_in. intros j Hj. apply in_seq in Hj.
    replace (j - a)%nat with (S (j - S a)) by lia. reflexivity. }
  rewrite Ht, <- IH. destruct (is_obs A x); reflexivity || (cbn [map fst]; reflexivity).
Qed.

Lemma obs_indexes_filter (col : list V) :
  obs_indexes A col = filter (fun j => is_obs A (nth j col (miss A))) (seq 0 (length col)).
Proof.
  unfold obs_indexes. rewrite obs_gen. apply filter_ext. intros j. now rewrite Nat.sub_0_r.
Qed.

Lemma filter_twice {T} (f g : T -> bool) l : filter f (filter g l) = filter (fun x => g x && f x) l.
Proof.
  induction l as [|x l IH]; [reflexivity|]. simpl. destruct (g x); simpl; [destruct (f x); now rewrite IH|assumption].
Qed.

Lemma last_filter_seq (q : nat -> bool) a n :
  match hd_error (rev (filter q (seq a n))) with
  | Some j => q j = true /\ (a <= j < a + n)%nat /\ forall l, (j < l < a + n)%nat -> q l = false
  | None => forall l, (a <= l < a + n)%nat -> q l = false
  end.
Proof.
  induction n as [|n IH]; [simpl; intros; lia|].
  rewrite seq_S, filter_app, rev_app_distr. simpl. destruct (q (a + n)%nat) eqn:E; simpl.
  - split; [assumption|]. split; [lia|]. intros; lia.
  - destruct (hd_error (rev (filter q (seq a n)))) as [j|].
    + destruct IH as (H1 & H2 & H3). split; [assumption|]. split; [lia|]. intros l Hl.
      destruct (Nat.eq_dec l (a + n)); [now subst|]. apply H3. lia.
    + intros l Hl. destruct (Nat.eq_dec l (a + n)); [now subst|]. apply IH. lia.
Qed.

Lemma first_filter_seq (q : nat -> bool) a n :
  match hd_error (filter q (seq a n)) with
  | Some j => q j = true /\ (a <= j < a + n)%nat /\ forall l, (a <= l < j)%nat -> q l = false
  | None => forall l, (a <= l < a + n)%nat -> q l = false
  end.
Proof.
  revert a. induction n as [|n IH]; intros a; [simpl; intros; lia|].
  simpl. destruct (q a) eqn:E; simpl.
  - split; [assumption|]. split; [lia|]. intros; lia.
  - specialize (IH (S a)). destruct (hd_error (filter q (seq (S a) n))) as [j|].
    + destruct IH as (H1 & H2 & H3). split; [assumption|]. split; [lia|]. intros l Hl.
      destruct (Nat.eq_dec l a); [now subst|]. apply H3. lia.
    + intros l Hl. destruct (Nat.eq_dec l a); [now subst|]. apply IH. lia.
Qed.

Notation at_ col j := (nth j col (miss A)).

Lemma obs_and_false (col : list V) x (p : bool) :
  is_obs A (at_ col x) && p = false -> p = true -> is_miss A (at_ col x) = true.
Proof. unfold is_obs. intros H ->. now destruct (is_miss A (at_ col x)). Qed.

(* the last observed position at or before i *)
Lemma prev_obs_spec (col : list V) i : (i < length col)%nat ->
  match prev_obs i (obs_indexes A col) with
  | Some j => (j <= i)%nat /\ is_miss A (at_ col j) = false /\
              forall l, (j < l <= i)%nat -> is_miss A (at_ col l) = true
  | None => forall l, (l <= i)%nat -> is_miss A (at_ col l) = true
  end.
Proof.
  intros Hi. unfold prev_obs. rewrite obs_indexes_filter, filter_twice.
  pose proof (last_filter_seq (fun x => is_obs A (at_ col x) && Nat.leb x i) 0 (length col)) as H.
  destruct (hd_error _) as [j|].
  - destruct H as ((H1a%negb_true_iff & H1b%Nat.leb_le)%andb_true_iff & H2 & H3). repeat split; try assumption.
    intros l Hl. apply (obs_and_false col l _ (H3 l ltac:(lia))), Nat.leb_le. lia.
  - intros l Hl. apply (obs_and_false col l _ (H l ltac:(lia))), Nat.leb_le. lia.
Qed.

(* the first observed position at or after i *)
Lemma next_obs_spec (col : list V) i : (i < length col)%nat ->
  match next_obs i (obs_indexes A col) with
  | Some j => (i <= j < length col)%nat /\ is_miss A (at_ col j) = false /\
              forall l, (i <= l < j)%nat -> is_miss A (at_ col l) = true
  | None => forall l, (i <= l < length col)%nat -> is_miss A (at_ col l) = true
  end.
Proof.
  intros Hi. unfold next_obs. rewrite obs_indexes_filter, filter_twice.
  pose proof (first_filter_seq (fun x => is_obs A (at_ col x) && Nat.leb i x) 0 (length col)) as H.
  destruct (hd_error _) as [j|].
  - destruct H as ((H1a%negb_true_iff & H1b%Nat.leb_le)%andb_true_iff & H2 & H3). repeat split; try assumption; try lia.
    intros l Hl. apply (obs_and_false col l _ (H3 l ltac:(lia))), Nat.leb_le. lia.
  - intros l Hl. apply (obs_and_false col l _ (H l ltac:(lia))), Nat.leb_le. lia.
Qed.

(* ... and they are the only positions with these properties *)
Lemma prev_obs_unique (col : list V) i j0 : (i < length col)%nat -> (j0 <= i)%nat ->
  is_miss A (at_ col j0) = false -> (forall l, (j0 < l <= i)%nat -> is_miss A (at_ col l) = true) ->
  prev_obs i (obs_indexes A col) = Some j0.
Proof.
  intros Hi Hj Ho Hg. pose proof (prev_obs_spec col i Hi) as Hp.
  destruct (prev_obs i (obs_indexes A col)) as [j|].
  - destruct Hp as (H1 & H2 & H3). f_equal.
    destruct (Nat.lt_trichotomy j j0) as [Hlt|[Heq|Hgt]]; [|assumption|].
    + specialize (H3 j0 ltac:(lia)). congruence.
    + specialize (Hg j ltac:(lia)). congruence.
  - specialize (Hp j0 Hj). congruence.
Qed.

Lemma next_obs_unique (col : list V) i j0 : (i < length col)%nat -> (i <= j0 < length col)%nat ->
  is_miss A (at_ col j0) = false -> (forall l, (i <= l < j0)%nat -> is_miss A (at_ col l) = true) ->
  next_obs i (obs_indexes A col) = Some j0.
Proof.
  intros Hi Hj Ho Hg. pose proof (next_obs_spec col i Hi) as Hp.
  destruct (next_obs i (obs_indexes A col)) as [j|].
  - destruct Hp as (H1 & H2 & H3). f_equal.
    destruct (Nat.lt_trichotomy j j0) as [Hlt|[Heq|Hgt]]; [|assumption|].
    + specialize (Hg j ltac:(lia)). congruence.
    + specialize (H3 j0 ltac:(lia)). congruence.
  - specialize (Hp j0 Hj). congruence.
Qed.

Lemma obs_empty_all_miss (col : list V) l : obs_indexes A col = [] -> (l < length col)%nat ->
  is_miss A (at_ col l) = true.
Proof.
  intros E Hl. rewrite obs_indexes_filter in E.
  destruct (is_miss A (at_ col l)) eqn:Em; [reflexivity|].
  assert (Hin : In l (filter (fun j => is_obs A (at_ col j)) (seq 0 (length col)))).
  { apply filter_In. split; [apply in_seq; lia|]. unfold is_obs. now rewrite Em. }
  rewrite E in Hin. destruct Hin.
Qed.

Lemma fill_col_const v dates c (col : list V) i : (i < length col)%nat ->
  nth i (fill_col A (FillConst A v) dates c col) (miss A)
  = if is_miss A (at_ col i) then v else at_ col i.
Proof.
  intros Hi. unfold fill_col. destruct (obs_indexes A col).
  - now rewrite nth_map_in with (d' := miss A).
  - rewrite nth_map_combine_seq by assumption. unfold is_obs. now destruct (is_miss A (at_ col i)).
Qed.

Lemma fill_col_prev dates c (col : list V) i : (i < length col)%nat ->
  nth i (fill_col A (FillPrev A) dates c col) (miss A)
  = if is_miss A (at_ col i) then
      match prev_obs i (obs_indexes A col) with Some j => at_ col j | None => miss A end
    else at_ col i.
Proof.
  intros Hi. unfold fill_col. destruct (obs_indexes A col) eqn:Eo.
  - pose proof (obs_empty_all_miss col i Eo Hi) as Hm. rewrite Hm. unfold prev_obs. simpl. now apply miss_law.
  - rewrite nth_map_combine_seq by assumption. unfold is_obs. now destruct (is_miss A (at_ col i)).
Qed.

Lemma fill_col_next dates c (col : list V) i : (i < length col)%nat ->
  nth i (fill_col A (FillNext A) dates c col) (miss A)
  = if is_miss A (at_ col i) then
      match next_obs i (obs_indexes A col) with Some j => at_ col j | None => miss A end
    else at_ col i.
Proof.
  intros Hi. unfold fill_col. destruct (obs_indexes A col) eqn:Eo.
  - pose proof (obs_empty_all_miss col i Eo Hi) as Hm. rewrite Hm. unfold next_obs. simpl. now apply miss_law.
  - rewrite nth_map_combine_seq by assumption. unfold is_obs. now destruct (is_miss A (at_ col i)).
Qed.

(* previous / next on a column, by what is observed around position i *)
Lemma fill_col_prev_obs dates c (col : list V) i j : (i < length col)%nat -> (j <= i)%nat ->
  is_miss A (at_ col j) = false -> (forall l, (j < l <= i)%nat -> is_miss A (at_ col l) = true) ->
  nth i (fill_col A (FillPrev A) dates c col) (miss A) = at_ col j.
Proof.
  intros Hi Hj Ho Hg. rewrite fill_col_prev by assumption. destruct (is_miss A (at_ col i)) eqn:Em.
  - now rewrite (prev_obs_unique col i j).
  - destruct (Nat.eq_dec j i) as [->|]; [reflexivity|]. rewrite Hg in Em by lia. discriminate.
Qed.

Lemma fill_col_prev_none dates c (col : list V) i : (i < length col)%nat ->
  (forall l, (l <= i)%nat -> is_miss A (at_ col l) = true) ->
  nth i (fill_col A (FillPrev A) dates c col) (miss A) = miss A.
Proof.
  intros Hi Hall. rewrite fill_col_prev, Hall by (assumption || lia). pose proof (prev_obs_spec col i Hi) as Hp.
  destruct (prev_obs i (obs_indexes A col)) as [j|]; [|reflexivity].
  destruct Hp as (Hj & Hjo & _). rewrite Hall in Hjo by assumption. discriminate.
Qed.

Lemma fill_col_next_obs dates c (col : list V) i j : (i <= j < length col)%nat ->
  is_miss A (at_ col j) = false -> (forall l, (i <= l < j)%nat -> is_miss A (at_ col l) = true) ->
  nth i (fill_col A (FillNext A) dates c col) (miss A) = at_ col j.
Proof.
  intros Hj Ho Hg. rewrite fill_col_next by lia. destruct (is_miss A (at_ col i)) eqn:Em.
  - now rewrite (next_obs_unique col i j) by (assumption || lia).
  - destruct (Nat.eq_dec j i) as [->|]; [reflexivity|]. rewrite Hg in Em by lia. discriminate.
Qed.

Lemma fill_col_next_none dates c (col : list V) i : (i < length col)%nat ->
  (forall l, (i <= l < length col)%nat -> is_miss A (at_ col l) = true) ->
  nth i (fill_col A (FillNext A) dates c col) (miss A) = miss A.
Proof.
  intros Hi Hall. rewrite fill_col_next, Hall by (assumption || lia). pose proof (next_obs_spec col i Hi) as Hp.
  destruct (next_obs i (obs_indexes A col)) as [j|]; [|reflexivity].
  destruct Hp as (Hj & Hjo & _). rewrite Hall in Hjo by assumption. discriminate.
Qed.

Section OnMap.
Variables (fr : Z) (span : option (list Z)) (s : series) (a b : Z).
Hypothesis Hwf : WF A s.
Hypothesis Hd : fill_dates span s = zrange a (b + 1).

(* constant: missing cells of the range take the constant, observed cells keep their value *)
Theorem fill_const_spec v t c : a <= t <= b -> (c < s_nv s)%nat ->
  cell A (fill_missing A fr (FillConst A v) span s) t c
  = if is_miss A (cell A s t c) then v else cell A s t c.
Proof.
  intros Ht Hc. destruct (offset_ex a t (proj1 Ht)) as [i ->].
  rewrite (fill_missing_at fr _ span s a b i c Hwf Hd) by (assumption || lia).
  rewrite fill_col_const by (rewrite col_span_length; lia). now rewrite col_span_nth by lia.
Qed.

(* previous: an observed cell keeps its value; a missing cell takes the last observed value at or before t
   inside the range, and stays missing when there is none *)
Theorem fill_previous_spec t c : a <= t <= b -> (c < s_nv s)%nat ->
  let r := cell A (fill_missing A fr (FillPrev A) span s) t c in
  (forall u, a <= u <= t -> is_miss A (cell A s u c) = false ->
     (forall w, u < w <= t -> is_miss A (cell A s w c) = true) -> r = cell A s u c) /\
  ((forall u, a <= u <= t -> is_miss A (cell A s u c) = true) -> r = miss A).
Proof.
  intros Ht Hc. cbv zeta. destruct (offset_ex a t (proj1 Ht)) as [i ->].
  rewrite (fill_missing_at fr _ span s a b i c Hwf Hd) by (assumption || lia).
  assert (Hi : (i < length (col_span s a b c))%nat) by (rewrite col_span_length; lia).
  assert (Hn : forall j, (j <= i)%nat -> at_ (col_span s a b c) j = cell A s (a + Z.of_nat j) c)
    by (intros j Hj; apply col_span_nth; lia).
  split.
  - intros u Hu Hobs Hgap. destruct (offset_ex a u (proj1 Hu)) as [j ->]. rewrite <- Hn by lia.
    apply fill_col_prev_obs; [assumption|lia|now rewrite Hn by lia|].
    intros l Hl. rewrite Hn by lia. apply Hgap. lia.
  - intros Hall. apply fill_col_prev_none; [assumption|]. intros l Hl. rewrite Hn by lia. apply Hall. lia.
Qed.

(* next: an observed cell keeps its value; a missing cell takes the first observed value at or after t
   inside the range, and stays missing when there is none *)
Theorem fill_next_spec t c : a <= t <= b -> (c < s_nv s)%nat ->
  let r := cell A (fill_missing A fr (FillNext A) span s) t c in
  (forall u, t <= u <= b -> is_miss A (cell A s u c) = false ->
     (forall w, t <= w < u -> is_miss A (cell A s w c) = true) -> r = cell A s u c) /\
  ((forall u, t <= u <= b -> is_miss A (cell A s u c) = true) -> r = miss A).
Proof.
  intros Ht Hc. cbv zeta. destruct (offset_ex a t (proj1 Ht)) as [i ->].
  rewrite (fill_missing_at fr _ span s a b i c Hwf Hd) by (assumption || lia).
  pose proof (col_span_length s a b c) as Hlen.
  assert (Hn : forall j, (j < length (col_span s a b c))%nat -> at_ (col_span s a b c) j = cell A s (a + Z.of_nat j) c)
    by (intros j Hj; apply col_span_nth; lia).
  split.
  - intros u Hu Hobs Hgap. destruct (offset_ex a u ltac:(lia)) as [j ->]. rewrite <- Hn by lia.
    apply fill_col_next_obs; [lia|now rewrite Hn by lia|].
    intros l Hl. rewrite Hn by lia. apply Hgap. lia.
  - intros Hall. apply fill_col_next_none; [lia|]. intros l Hl. rewrite Hn by lia. apply Hall. lia.
Qed.

End OnMap.
End FillProofs.
