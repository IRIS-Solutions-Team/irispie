(* C10: pointwise (total-map) specifications of the moving-window functions and the statistics across
   variants of model/SeriesOps.v, for every carrier. *)
From Coq Require Import ZArith List Bool Lia.
From Verif Require Import lib.Arith model.Series model.SeriesOps proofs.SeriesProofs.
Import ListNotations.
Open Scope Z_scope.

Section WinProofs.
Variable A : Arith.
Notation V := (car A).
Notation series := (series A).
Hypothesis miss_law : forall x : V, is_miss A x = true -> x = miss A.
Variable X : ArithExt A.

(* t lies inside the stored span of s *)
Definition in_span (s : series) (t : Z) : bool :=
  match s_start s, s_end A s with Some a, Some b => (a <=? t) && (t <=? b) | _, _ => false end.

Lemma row_at_mk fr st nv (rows : list (list V)) t :
  row_at A (mkSeries fr (Some st) nv rows) t
  = if (st <=? t) && (t <=? st + Z.of_nat (length rows) - 1)
    then nth (Z.to_nat (t - st)) rows (missrow A nv) else missrow A nv.
Proof. apply row_at_rows. Qed.

Lemma row_at_in_span (s : series) st t : s_start s = Some st -> in_span s t = true ->
  row_at A s t = nth (Z.to_nat (t - st)) (s_data s) (missrow A (s_nv s)) /\
  (Z.to_nat (t - st) < length (s_data s))%nat /\ st <= t.
Proof.
  intros Es. unfold in_span, s_end, row_at. rewrite Es. intros H.
  apply andb_true_iff in H as [H1 H2]. apply Z.leb_le in H1, H2.
  destruct (Z.ltb_spec t st); [lia|]. repeat split; lia.
Qed.

(* new rows, one for each stored row of s, are read at the periods of the span of s *)
Lemma row_at_respan (s : series) st nv (rows : list (list V)) t :
  s_start s = Some st -> length rows = length (s_data s) ->
  row_at A (mkSeries (s_freq s) (Some st) nv rows) t
  = if in_span s t then nth (Z.to_nat (t - st)) rows (missrow A nv) else missrow A nv.
Proof. intros Es Hl. rewrite row_at_mk, Hl. unfold in_span, s_end. now rewrite Es. Qed.

Theorem statistic_spec k (s : series) t : WF A s ->
  row_at A (statistic A X k s) t
  = if in_span s t then [stat_value A X k (row_at A s t)] else missrow A 1.
Proof.
  intros Hwf. unfold statistic. rewrite row_at_trim by (assumption || now apply map_rows_WF).
  destruct (s_start s) as [st|] eqn:Es.
  - rewrite (row_at_respan s st) by (assumption || apply map_length).
    destruct (in_span s t) eqn:E; [|reflexivity].
    destruct (row_at_in_span s st t Es E) as (Hr & Hi & _).
    rewrite nth_map_in with (d' := missrow A (s_nv s)) by assumption. now rewrite Hr.
  - unfold in_span. rewrite Es. unfold row_at. simpl. reflexivity.
Qed.

(* the window of k periods ending at t, oldest first: x(t-k+1), ..., x(t) of variant c *)
Definition window_at (s : series) (t : Z) (k : nat) (c : nat) : list V :=
  map (fun j => cell A s (t - Z.of_nat k + 1 + Z.of_nat j) c) (seq 0 k).

Lemma window_rows_as_map (s : series) st i k c : s_start s = Some st ->
  col_of A (window_rows A s i k) c = window_at s (st + Z.of_nat i) k c.
Proof.
  intros Es. unfold col_of, window_rows, window_at. rewrite map_map. apply map_ext. intros j.
  unfold cell, row_at. rewrite Es.
  destruct (Z.ltb_spec (Z.of_nat i - Z.of_nat k + 1 + Z.of_nat j) 0);
    destruct (Z.ltb_spec (st + Z.of_nat i - Z.of_nat k + 1 + Z.of_nat j) st); try lia; [reflexivity|].
  do 2 f_equal. lia.
Qed.

Theorem moving_spec m k (s r : series) t : WF A s -> moving A m k s = Ok r ->
  row_at A r t
  = if in_span s t then map (fun c => mov_value A m k (window_at s t k c)) (seq 0 (s_nv s))
    else missrow A (s_nv s).
Proof.
  intros Hwf. pose proof Hwf as [H1 H2]. unfold moving.
  destruct (s_data s) eqn:Ed; [discriminate|]. rewrite <- Ed.
  destruct (Nat.eqb k 0); [discriminate|]. intros H; injection H as <-.
  rewrite row_at_trim by (assumption || (apply respan_seq_WF; [assumption|]; intros i; now rewrite map_length, seq_length)).
  destruct (s_start s) as [st|] eqn:Es.
  - rewrite (row_at_respan s st) by (assumption || now rewrite map_length, seq_length).
    destruct (in_span s t) eqn:E; [|reflexivity].
    destruct (row_at_in_span s st t Es E) as (_ & Hi & Hge).
    rewrite nth_map_seq by assumption. apply map_ext. intros c.
    rewrite (window_rows_as_map s st) by assumption. do 2 f_equal. lia.
  - discriminate (H2 eq_refl).
Qed.

(* "missing if any member of the window is missing": for carriers whose + and * propagate the missing value *)
Section Absorb.
Variable f : V -> V -> V.
Hypothesis f_miss_l : forall x y, is_miss A x = true -> is_miss A (f x y) = true.
Hypothesis f_miss_r : forall x y, is_miss A y = true -> is_miss A (f x y) = true.

Lemma fold_left_miss_acc l a : is_miss A a = true -> is_miss A (fold_left f l a) = true.
Proof. revert a. induction l as [|x l IH]; simpl; intros a Ha; [assumption|]. apply IH. now apply f_miss_l. Qed.

Lemma fold_left_miss_in l a x : In x l -> is_miss A x = true -> is_miss A (fold_left f l a) = true.
Proof. intros Hin Hx. apply (fold_left_absorb (fun x => is_miss A x = true)); eauto. Qed.

Lemma fold1_miss_in l d x : In x l -> is_miss A x = true -> is_miss A (fold1 A f l d) = true.
Proof.
  destruct l as [|y l]; simpl; intros Hin Hx; [destruct Hin|].
  destruct Hin as [->|Hin]; [now apply fold_left_miss_acc|now apply (fold_left_miss_in l y x)].
Qed.
End Absorb.

Definition propagates (f : V -> V -> V) : Prop :=
  (forall x y, is_miss A x = true -> is_miss A (f x y) = true) /\
  (forall x y, is_miss A y = true -> is_miss A (f x y) = true).

Theorem mov_value_missing m k w x :
  propagates (add A) -> propagates (mul A) -> (forall a b, is_miss A a = true -> is_miss A (div A a b) = true) ->
  In x w -> is_miss A x = true -> is_miss A (mov_value A m k w) = true.
Proof.
  intros [Ha1 Ha2] [Hm1 Hm2] Hd Hin Hx. destruct m; simpl.
  - now apply (fold1_miss_in (add A) Ha1 Ha2 w _ x).
  - apply Hd. now apply (fold1_miss_in (add A) Ha1 Ha2 w _ x).
  - now apply (fold1_miss_in (mul A) Hm1 Hm2 w _ x).
Qed.

Lemma mov_value_sum k x w : mov_value A MovSum k (x :: w) = fold_left (add A) w x.
Proof. reflexivity. Qed.
Lemma mov_value_avg k x w : mov_value A MovAvg k (x :: w) = div A (fold_left (add A) w x) (ofZ A (Z.of_nat k)).
Proof. reflexivity. Qed.
Lemma mov_value_prod k x w : mov_value A MovProd k (x :: w) = fold_left (mul A) w x.
Proof. reflexivity. Qed.

End WinProofs.
