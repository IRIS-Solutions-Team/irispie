(* Proofs about model/CodecsExt.v (C11):
   the date columns of a multi-frequency sheet round-trip, for every number of blocks, every block length and every
   padding, under both documented codec pairs (SDMX text / ISO text at any position);
   under every history of period arithmetic with int or numpy-int offsets the serial is a builtin int, the period
   equals the one obtained on plain integers, and its repr text is the plain repr (hence eval(repr(p)) = p). *)
From Coq Require Import ZArith String List Lia.
From Verif Require Import lib.Calendar lib.PyStr gen.DatesGen model.Dates model.Codecs
     gen.CodecsExtGen model.CodecsExt proofs.DatesProofs proofs.CodecsProofs.
Import ListNotations.
Open Scope Z_scope.

Definition block_ok (dom : period -> Prop) (b : Z * list period) : Prop :=
  snd b <> [] /\ Forall (fun p => dom p /\ p_freq p = fst b) (snd b).

Fixpoint zrange (i : Z) (n : nat) : list Z := match n with O => [] | S k => i :: zrange (i + 1) k end.

Section SheetGeneric.
  Variable enc : period -> dres str.
  Variable dec : Z -> str -> dres period.
  Variable dom : period -> Prop.
  Hypothesis H_rt : forall p, dom p -> exists x, enc p = Ok x /\ dec (p_freq p) x = Ok p.
  Hypothesis H_ne : forall p, dom p -> enc p <> Ok [].

  Lemma extract_rows_pad : forall start f k i, extract_rows dec false start f (repeat [] k) i = Ok [].
  Proof. induction k; intros; cbn; auto. Qed.

  Lemma map_dres_enc : forall f ps, Forall (fun p => dom p /\ p_freq p = f) ps ->
    exists cells, map_dres enc ps = Ok cells /\ length cells = length ps.
  Proof.
    induction ps as [|p ps IH]; intros F.
    - exists []. split; reflexivity.
    - inversion F as [|? ? [D _] F']; subst. destruct (H_rt p D) as (x & E & _). destruct (IH F') as (c & C & L).
      exists (x :: c). cbn. rewrite E. cbn. rewrite C. cbn. split; [reflexivity | rewrite L; reflexivity].
  Qed.

  Lemma extract_rows_enc : forall f start ps, Forall (fun p => dom p /\ p_freq p = f) ps ->
    forall cells, map_dres enc ps = Ok cells ->
    forall k i, extract_rows dec false start f (cells ++ repeat [] k) i = Ok (enumerate_from i ps).
  Proof.
    induction ps as [|p ps IH]; intros F cells M k i.
    - cbn in M. injection M as <-. cbn [app enumerate_from]. apply extract_rows_pad.
    - inversion F as [|? ? [D Fq] F']; subst.
      destruct (H_rt p D) as (x & E & R). pose proof (H_ne p D) as NE.
      cbn in M. rewrite E in M. cbn in M. destruct (map_dres enc ps) as [c|e] eqn:C; cbn in M; [|discriminate].
      injection M as <-. destruct x as [|ch x]; [exfalso; apply NE; exact E|].
      cbn [app extract_rows gen_row_selected orb]. unfold gen_cell_period. rewrite R. cbn [bind].
      rewrite (IH F' c eq_refl k (i + 1)). reflexivity.
  Qed.

  (* in both modes the first cell of the block is decoded first: it is the first period written *)
  Lemma extract_block_start : forall so p ps cells pad, Forall (fun q => dom q /\ p_freq q = p_freq p) (p :: ps) ->
    map_dres enc (p :: ps) = Ok cells ->
    extract_block dec so (p_freq p) (cells ++ pad) = extract_rows dec so p (p_freq p) (cells ++ pad) 0.
  Proof.
    intros so p ps cells pad F C. inversion F as [|? ? [D _] _]; subst. destruct (H_rt p D) as (x & E & R).
    cbn in C. rewrite E in C. cbn in C. destruct (map_dres enc ps) as [c|e]; cbn in C; [|discriminate]. injection C as <-.
    cbn [app extract_block]. unfold gen_cell_period at 1. rewrite R. reflexivity.
  Qed.

  Lemma extract_block_enc : forall b total, block_ok dom b ->
    exists cells, export_column enc total (snd b) = Ok cells /\
                  extract_block dec false (fst b) cells = Ok (enumerate_from 0 (snd b)).
  Proof.
    intros [f ps] total [NE F]. cbn [fst snd] in *.
    destruct (map_dres_enc f ps F) as (c & C & _).
    unfold export_column. rewrite C. cbn [dmap]. eexists. split; [reflexivity|].
    destruct ps as [|p ps]; [congruence|]. inversion F as [|? ? [_ <-] _]; subst.
    rewrite (extract_block_start false p ps c _ F C). apply (extract_rows_enc _ p (p :: ps) F c C).
  Qed.

  (* a sheet is imported block after block: what holds of the cells of every block holds of the sheet *)
  Lemma import_blocks : forall so total (rows : Z * list period -> list (Z * period)) blocks,
    Forall (fun b => exists cells, export_column enc total (snd b) = Ok cells /\
                                   extract_block dec so (fst b) cells = Ok (rows b)) blocks ->
    exists cols,
      map_dres (fun b => dmap (fun c => (fst b, c)) (export_column enc total (snd b))) blocks = Ok cols /\
      import_sheet dec so cols = Ok (map (fun b => (fst b, rows b)) blocks).
  Proof.
    induction blocks as [|b bl IH]; intros F.
    - exists []. split; reflexivity.
    - inversion F as [|? ? (cells & C & E) F']; subst. destruct (IH F') as (cols & X & I).
      exists ((fst b, cells) :: cols). split.
      + cbn. rewrite C. cbn. rewrite X. reflexivity.
      + unfold import_sheet in *. cbn. rewrite E. cbn. rewrite I. reflexivity.
  Qed.

  (* the sheet: every block is decoded with its own frequency, whatever the other blocks contain *)
  Theorem sheet_roundtrip_generic : forall blocks, Forall (block_ok dom) blocks ->
    exists cols, export_sheet enc blocks = Ok cols /\
                 import_sheet dec false cols = Ok (map (fun b => (fst b, enumerate_from 0 (snd b))) blocks).
  Proof.
    intros blocks F. apply (import_blocks false _ (fun b => enumerate_from 0 (snd b))).
    eapply Forall_impl; [| exact F]. intros b B. apply extract_block_enc, B.
  Qed.

  (* start_period_only: row i of the block is start + i, where start is the decoded first cell (no other cell is parsed) *)
  Lemma extract_rows_start_only : forall start f cells i,
    extract_rows dec true start f cells i = Ok (map (fun j => (j, padd start j)) (zrange i (length cells))).
  Proof.
    induction cells as [|x r IH]; intros i; [reflexivity|].
    cbn [extract_rows gen_row_selected orb length zrange map bind]. rewrite IH. reflexivity.
  Qed.

  Theorem start_only_block : forall p total, dom p ->
    exists x cells, export_column enc total [p] = Ok (x :: cells) /\
      extract_block dec true (p_freq p) (x :: cells) = Ok (map (fun j => (j, padd p j)) (zrange 0 (S (length cells)))).
  Proof.
    intros p total D. destruct (H_rt p D) as (x & E & R).
    exists x, (repeat [] (gen_export_padding total 1)). split.
    - unfold export_column. cbn. rewrite E. reflexivity.
    - cbn [extract_block]. unfold gen_cell_period. rewrite R. cbn [bind]. apply extract_rows_start_only.
  Qed.
End SheetGeneric.

(* the two documented codec pairs round-trip on their domains, and never write an empty cell *)
Lemma sdmx_rt_pair : forall p, sdmx_domain p -> exists x, fmt_period FmtSdmx p = Ok x /\ parse_cell ParSdmx (p_freq p) x = Ok p.
Proof. intros p D. destruct (sdmx_roundtrip_autodetect p D) as (x & A & B & _). exists x. split; assumption. Qed.

Lemma iso_rt_pair : forall pos p, in_domain p -> exists x, fmt_period (FmtIso pos) p = Ok x /\ parse_cell ParIso (p_freq p) x = Ok p.
Proof. intros pos p D. destruct (iso_roundtrip p pos D) as (x & A & B). exists x. split; assumption. Qed.

Lemma from_sdmx_as_empty : forall p, sdmx_domain p -> from_sdmx_as (p_freq p) [] <> Ok p.
Proof.
  intros [f s] D. destruct D as [[[R Y] | [E C]] | E]; cbn [p_freq p_serial] in *.
  - destruct (regular_cases f R) as [-> | [-> | [-> | ->]]]; vm_compute; discriminate.
  - subst f. vm_compute. discriminate.
  - subst f. vm_compute. discriminate.
Qed.

Lemma sdmx_cell_nonempty : forall p, sdmx_domain p -> fmt_period FmtSdmx p <> Ok [].
Proof.
  intros p D E. destruct (sdmx_rt_pair p D) as (x & A & B). rewrite E in A. injection A as <-.
  exact (from_sdmx_as_empty p D B).
Qed.

Lemma iso_cell_nonempty : forall pos p, in_domain p -> fmt_period (FmtIso pos) p <> Ok [].
Proof. intros pos p D E. destruct (iso_rt_pair pos p D) as (x & A & B). rewrite E in A. injection A as <-. discriminate B. Qed.

Theorem sheet_start_only_sdmx : forall p total, sdmx_domain p ->
  exists x cells, export_column (fmt_period FmtSdmx) total [p] = Ok (x :: cells) /\
    extract_block (parse_cell ParSdmx) true (p_freq p) (x :: cells)
      = Ok (map (fun j => (j, padd p j)) (zrange 0 (S (length cells)))).
Proof. intros p total. exact (start_only_block _ _ _ sdmx_rt_pair p total). Qed.

(* non-vacuity: yy(2021) and qq(2021,1) are both written as 2021-01-01 and each comes back under its own mark *)
Example sheet_iso_example :
  block_ok in_domain (1, [mkP 1 2021; mkP 1 2022]) /\ block_ok in_domain (4, [mkP 4 8084]) /\
  export_sheet (fmt_period (FmtIso PStart)) [(1, [mkP 1 2021; mkP 1 2022]); (4, [mkP 4 8084])]
    = Ok [(1, [s2l "2021-01-01"; s2l "2022-01-01"]); (4, [s2l "2021-01-01"; []])] /\
  import_sheet (parse_cell ParIso) false [(1, [s2l "2021-01-01"; s2l "2022-01-01"]); (4, [s2l "2021-01-01"; []])]
    = Ok [(1, [(0, mkP 1 2021); (1, mkP 1 2022)]); (4, [(0, mkP 4 8084)])].
Proof.
  assert (D1 : forall s, 1 <= s <= 9999 -> in_domain (mkP 1 s)).
  { intros s H. left. cbn [p_freq p_serial]. split; [reflexivity|]. rewrite Z.div_1_r. unfold MAXYEAR. lia. }
  assert (D4 : in_domain (mkP 4 8084)).
  { left. cbn [p_freq p_serial]. split; [reflexivity|]. change (8084 / 4) with 2021. unfold MAXYEAR. lia. }
  split; [|split; [|split]].
  - split; [discriminate|]. cbn [fst snd]. apply Forall_cons; [split; [apply D1; lia|reflexivity]|].
    apply Forall_cons; [split; [apply D1; lia|reflexivity]|apply Forall_nil].
  - split; [discriminate|]. cbn [fst snd]. apply Forall_cons; [split; [apply D4|reflexivity]|apply Forall_nil].
  - vm_compute. reflexivity.
  - vm_compute. reflexivity.
Qed.

Lemma tv_cast : forall b x, tv (cast b x) = tv x.
Proof. intros [] x; reflexivity. Qed.

Lemma tp_init_py : forall c f s, c_init c = true -> tt (tp_serial (tp_init c f s)) = TPy.
Proof. intros c f s H. unfold tp_init. rewrite H. reflexivity. Qed.

Lemma astep_py : forall c p o, c_init c = true -> tt (tp_serial (astep c p o)) = TPy.
Proof. intros c p [k|k|k|k] H; cbn [astep]; unfold tp_sub, tp_add; apply tp_init_py; assumption. Qed.

Lemma run_arith_py : forall c ops p, c_init c = true -> tt (tp_serial p) = TPy -> tt (tp_serial (run_arith c p ops)) = TPy.
Proof.
  unfold run_arith. induction ops as [|o r IH]; intros p H T; [exact T|].
  cbn [fold_left]. apply IH; [assumption|]. apply astep_py. assumption.
Qed.

(* whatever the types of the offsets and however long the history, the serial is a builtin int *)
Theorem arith_serial_pyint_any_casts : forall c f s ops, c_init c = true ->
  tt (tp_serial (run_arith c (tp_init c f s) ops)) = TPy.
Proof. intros. apply run_arith_py; [assumption|]. apply tp_init_py. assumption. Qed.

(* the period reached is the one computed on plain integers (model/Dates.v: padd, psub_int) *)
Lemma astep_untag : forall c p o, untag (astep c p o) = pstep (untag p) o.
Proof.
  intros c [f s] [k|k|k|k]; cbn [astep pstep]; unfold tp_sub, tp_add, tp_init, untag, padd, psub_int;
    cbn [tp_freq tp_serial p_freq p_serial tv]; rewrite ?tv_cast; cbn [tv]; rewrite ?tv_cast; try reflexivity.
  unfold gen_period_add, gen_period_sub_int, t_neg. cbn [tv]. rewrite tv_cast. reflexivity.
Qed.

Theorem arith_untag : forall c ops p, untag (run_arith c p ops) = run_plain (untag p) ops.
Proof.
  unfold run_arith, run_plain. induction ops as [|o r IH]; intros p; [reflexivity|].
  cbn [fold_left]. rewrite IH, astep_untag. reflexivity.
Qed.

Lemma render_t_py : forall l, render_t TPy l = render l.
Proof.
  induction l as [|p r IH]; [reflexivity|]. cbn [render_t render]. rewrite IH.
  destruct p; reflexivity.
Qed.

Lemma repr_str_t_py : forall p, tt (tp_serial p) = TPy -> repr_str_t p = repr_str (untag p).
Proof.
  intros p T. unfold repr_str_t, repr_str. rewrite T.
  replace (if tp_freq p =? freq_DAILY then TPy else TPy) with TPy by (destruct (tp_freq p =? freq_DAILY); reflexivity).
  destruct (repr_pieces (untag p)) as [[l b]|e]; [|reflexivity]. cbn [bind]. rewrite render_t_py. reflexivity.
Qed.

Example arith_example :
  let q := run_arith gen_casts (tp_init gen_casts 4 (mkT 8080 TNp)) [AAdd (mkT 3 TNp); ASub (mkT (-1) TNp); ARAdd (mkT 0 TPy)] in
  sdmx_domain (untag q) /\ untag q = mkP 4 8084 /\ repr_str_t q = Ok (s2l "qq(2021,1)").
Proof.
  cbv zeta. split; [|split; vm_compute; reflexivity].
  left. left. vm_compute. split; [reflexivity|]. split; discriminate.
Qed.
