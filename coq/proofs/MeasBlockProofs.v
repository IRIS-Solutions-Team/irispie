(* The measurement block of the first-order solution (fords/solutions.py: _solve_measurement_equations), as generated
   from the source into gen/MeasBlockGen.v, instantiated on MathComp matrices over an arbitrary field.

   The linearised measurement equations are  F y + G xi + Hc + J w = 0  (F = Jacobian w.r.t. the measurement variables,
   NOT assumed diagonal or symmetric).  meas_block_solves: for invertible F, the triple (Z, H, D) the code computes turns
   them into the observation equation  y = Z xi + D + H w  the Kalman filter uses - the two are EQUIVALENT for every
   y, xi, w, every dimension. *)
From mathcomp Require Import all_ssreflect all_algebra.
From Verif.lib Require Import MatOps MatMC.
From Verif.gen Require Import MeasBlockGen.
Set Implicit Arguments.
Unset Strict Implicit.
Import GRing.Theory.
Local Open Scope ring_scope.

Section MeasBlock.
Variable K : fieldType.
Variables (flog : K -> K) (flog2pi : K).
Notation M := (MC flog flog2pi).
Variables ny nxi nw na : nat.
Variables (F : 'M[K]_ny) (G : 'M[K]_(ny, nxi)) (J : 'M[K]_(ny, nw)) (Hc : 'cV[K]_ny) (Ua : 'M[K]_(nxi, na)).

Notation Z := (@meas_Z M ny nxi nw na F G J Hc Ua).
Notation H := (@meas_H M ny nxi nw na F G J Hc Ua).
Notation D := (@meas_D M ny nxi nw na F G J Hc Ua).
Notation Za := (@meas_Za M ny nxi nw na F G J Hc Ua).

Lemma unitmx_opp : F \in unitmx -> (- F) \in unitmx.
Proof. by move=> uF; rewrite -scaleN1r unitmxZ // rpredN unitr1. Qed.

(* the defining equations of the three matrices *)
Lemma meas_block_defining : F \in unitmx -> F *m Z + G = 0 /\ F *m H + J = 0 /\ F *m D + Hc = 0.
Proof.
move=> uF; have uA := unitmx_opp uF.
rewrite /meas_Z /meas_H /meas_D /left_div /=.
have e : forall p (B : 'M[K]_(ny, p)), F *m (invmx (- F) *m B) + B = 0.
  move=> p B; rewrite -[F in F *m _]opprK mulNmx mulKVmx //; exact: addNr.
by split; [|split]; apply: e.
Qed.

(* any (z, h, d) with these defining equations turns the measurement equations into the observation equation *)
Lemma solved_block_equiv (z : 'M[K]_(ny, nxi)) (h : 'M[K]_(ny, nw)) (d : 'cV[K]_ny) :
  F \in unitmx -> F *m z + G = 0 -> F *m h + J = 0 -> F *m d + Hc = 0 ->
  forall (y : 'cV[K]_ny) (xi : 'cV[K]_nxi) (w : 'cV[K]_nw),
    (F *m y + G *m xi + Hc + J *m w = 0) <-> (y = z *m xi + d + h *m w).
Proof.
move=> uF eZ eH eD y xi w.
have -> : F *m y + G *m xi + Hc + J *m w = F *m (y - (z *m xi + d + h *m w)).
  by rewrite -(addr0_eq eZ) -(addr0_eq eH) -(addr0_eq eD) mulmxBr !mulmxDr !mulmxA !mulNmx !opprD !addrA.
split.
- move=> e; apply/eqP; rewrite -subr_eq0; apply/eqP.
  by rewrite -[LHS](mulKmx uF) e mulmx0.
- by move=> <-; rewrite subrr mulmx0.
Qed.

Theorem meas_block_solves : F \in unitmx ->
  forall (y : 'cV[K]_ny) (xi : 'cV[K]_nxi) (w : 'cV[K]_nw),
    (F *m y + G *m xi + Hc + J *m w = 0) <-> (y = Z *m xi + D + H *m w).
Proof.
move=> uF; have [eZ [eH eD]] := meas_block_defining uF.
exact: (solved_block_equiv uF eZ eH eD).
Qed.

(* Za = Z Ua: the observation equation on the triangular state alpha (xi = Ua alpha) *)
Lemma meas_Za_eq : Za = Z *m Ua.
Proof. by []. Qed.

End MeasBlock.

(* Non-vacuity: the only hypothesis (F invertible) is satisfiable in every dimension, e.g. by F = -I (every measurement
   equation of the form  y_j = ...  contributes -1 on the diagonal); non-symmetric instances are exercised by the
   correspondence and the falsifier (generated models whose measurement equations refer to other measurement variables). *)
Example meas_block_nonvacuous (n : nat) : ((-1)%:M : 'M[rat]_n) \in unitmx.
Proof. by rewrite unitmxE det_scalar unitrX // unitrN unitr1. Qed.
