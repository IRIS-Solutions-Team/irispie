(* C20  Variants: every operation acts pointwise; variant k of a multi-variant model has the
   history of a single-variant model given variant k's inputs. *)
From Coq Require Import List Arith Bool Lia.
From Verif Require Import model.Variants.
Import ListNotations.

Section Lists.
Context {A : Type}.

Lemma last_indep : forall (l : list A) x d d', last (x :: l) d = last (x :: l) d'.
Proof.
  induction l as [ | y l IH]; intros x d d'; [reflexivity | ].
  change (last (y :: l) d = last (y :: l) d'). apply IH.
Qed.

Lemma last_cons_default : forall (l : list A) x d, last (x :: l) d = last l x.
Proof.
  destruct l as [ | y l]; intros x d; [reflexivity | ].
  change (last (y :: l) d = last (y :: l) x). apply last_indep.
Qed.

Lemma nth_firstn_lt : forall (l : list A) n k d, k < n -> nth k (firstn n l) d = nth k l d.
Proof.
  induction l as [ | x l IH]; intros n k d H.
  - rewrite firstn_nil. reflexivity.
  - destruct n as [ | n]; [lia | ]. destruct k as [ | k]; [reflexivity | ].
    cbn [firstn nth]. apply IH. lia.
Qed.

Lemma last_as_nth : forall (l : list A) d, last l d = nth (length l - 1) l d.
Proof.
  induction l as [ | x l IH]; intros d; [reflexivity | ].
  destruct l as [ | y l]; [reflexivity | ].
  change (last (y :: l) d = nth (length (y :: l)) (x :: y :: l) d).
  rewrite IH. cbn [length nth]. replace (S (length l) - 1) with (length l) by lia. reflexivity.
Qed.

End Lists.

Section Proofs.

Variables I V X : Type.
Variable dv : V.
Variable assign1 : I -> X -> V -> V.

Notation etl := (etl X).
Notation zip_stream := (zip_stream V X).
Notation alter := (alter V dv).
Notation apply_op := (apply_op I V X dv assign1).
Notation run := (run I V X dv assign1).
Notation single_op := (single_op I V X assign1).
Notation fun_run := (fun_run I V X assign1).
Notation anc_op := (@anc_op I V X).
Notation anc_run := (@anc_run I V X).
Notation len_after := (@len_after I V X).
Notation project := (@project I V X).

(* ---------------- exhaust-then-last broadcasting *)

Lemma etl_nil : forall d k, etl [] d k = d.
Proof. intros d k. unfold Variants.etl. destruct k; reflexivity. Qed.

Lemma etl_cons_S : forall x xs d k, etl (x :: xs) d (S k) = etl xs x k.
Proof.
  intros x xs d k. unfold Variants.etl. rewrite last_cons_default. reflexivity.
Qed.

Lemma zip_stream_length : forall g vs xs d, length (zip_stream g vs xs d) = length vs.
Proof.
  intros g. induction vs as [ | v vs IH]; intros xs d; [reflexivity | ].
  destruct xs as [ | x xs]; cbn [Variants.zip_stream length]; rewrite IH; reflexivity.
Qed.

(* zip(variants, exhaust_then_last(xs, d)): variant k meets xs[k], or the last item, or the default *)
Lemma zip_stream_nth : forall g vs xs d k, k < length vs ->
  nth k (zip_stream g vs xs d) dv = g (etl xs d k) (nth k vs dv).
Proof.
  intros g. induction vs as [ | v vs IH]; intros xs d k H; [cbn in H; lia | ].
  destruct xs as [ | x xs]; cbn [Variants.zip_stream].
  - destruct k as [ | k]; cbn [nth].
    + rewrite etl_nil. reflexivity.
    + rewrite IH by (cbn in H; lia). rewrite !etl_nil. reflexivity.
  - destruct k as [ | k]; cbn [nth].
    + reflexivity.
    + rewrite IH by (cbn in H; lia). rewrite etl_cons_S. reflexivity.
Qed.

Lemma etl_in_range : forall xs d k, k < length xs -> etl xs d k = nth k xs d.
Proof. intros xs d k H. unfold Variants.etl. apply nth_indep. assumption. Qed.

Lemma etl_beyond : forall xs d k, length xs <= k -> etl xs d k = last xs d.
Proof. intros xs d k H. unfold Variants.etl. apply nth_overflow. assumption. Qed.

(* ---------------- alter_num_variants *)

Lemma alter_shrink : forall n vs, 1 <= n <= length vs -> alter n vs = Some (firstn n vs).
Proof.
  intros n vs H. unfold Variants.alter.
  destruct (Nat.ltb_spec n (length vs)).
  - destruct (Nat.ltb_spec n 1); [lia | reflexivity].
  - assert (n = length vs) by lia. subst n. rewrite Nat.ltb_irrefl, firstn_all. reflexivity.
Qed.

Lemma alter_expand : forall n vs, vs <> [] -> length vs <= n ->
  alter n vs = Some (vs ++ repeat (last vs dv) (n - length vs)).
Proof.
  intros n vs Hne H. unfold Variants.alter.
  destruct (Nat.ltb_spec n (length vs)); [lia | ].
  destruct (Nat.ltb_spec (length vs) n).
  - destruct vs; [congruence | reflexivity].
  - replace (n - length vs) with 0 by lia. cbn [repeat]. rewrite app_nil_r. reflexivity.
Qed.

Lemma alter_nil : forall n, alter n [] = match n with 0 => Some [] | _ => None end.
Proof. intros [ | n]; reflexivity. Qed.

Lemma alter_zero : forall vs, vs <> [] -> alter 0 vs = None.
Proof. intros [ | v vs] H; [congruence | reflexivity]. Qed.

Lemma alter_cases : forall n vs out, alter n vs = Some out ->
  (n = 0 /\ vs = [] /\ out = []) \/
  (1 <= n <= length vs /\ out = firstn n vs) \/
  (vs <> [] /\ length vs <= n /\ out = vs ++ repeat (last vs dv) (n - length vs)).
Proof.
  intros n vs out H. destruct vs as [ | v vs'] eqn:Ev.
  - rewrite alter_nil in H. destruct n; [ | discriminate]. injection H as <-. left. auto.
  - rewrite <- Ev in *. assert (Hne : vs <> []) by (rewrite Ev; discriminate).
    destruct n as [ | n]; [rewrite alter_zero in H by assumption; discriminate | ].
    destruct (Nat.le_gt_cases (S n) (length vs)).
    + rewrite alter_shrink in H by lia. injection H as <-. right. left. split; [lia | reflexivity].
    + rewrite alter_expand in H by (assumption || lia). injection H as <-. right. right.
      split; [assumption | split; [lia | reflexivity]].
Qed.

Lemma alter_length : forall n vs out, alter n vs = Some out -> length out = n.
Proof.
  intros n vs out H. destruct (alter_cases n vs out H) as [(-> & _ & ->) | [(Hn & ->) | (Hne & Hn & ->)]].
  - reflexivity.
  - rewrite firstn_length. lia.
  - rewrite app_length, repeat_length. lia.
Qed.

Lemma alter_nth : forall n vs out k, alter n vs = Some out -> k < n ->
  nth k out dv = nth (Nat.min k (length vs - 1)) vs dv.
Proof.
  intros n vs out k H Hk. destruct (alter_cases n vs out H) as [(-> & _ & ->) | [(Hn & ->) | (Hne & Hn & ->)]].
  - lia.
  - rewrite nth_firstn_lt by assumption. f_equal. lia.
  - assert (0 < length vs) by (destruct vs; [congruence | cbn; lia]).
    destruct (Nat.lt_ge_cases k (length vs)).
    + rewrite app_nth1 by assumption. f_equal. lia.
    + rewrite app_nth2 by assumption.
      rewrite (nth_indep _ dv (last vs dv)), nth_repeat by (rewrite repeat_length; lia).
      rewrite last_as_nth. f_equal. lia.
Qed.

Lemma alter_fails_iff : forall n vs, alter n vs = None <-> (n = 0 /\ vs <> []) \/ (vs = [] /\ 0 < n).
Proof.
  intros n vs. unfold Variants.alter.
  destruct (Nat.ltb_spec n (length vs)).
  - destruct (Nat.ltb_spec n 1).
    + split; [intros _; left; split; [lia | intros ->; cbn in *; lia] | reflexivity].
    + split; [discriminate | intros [[-> _] | [-> _]]; cbn in *; lia].
  - destruct (Nat.ltb_spec (length vs) n).
    + destruct vs as [ | v vs].
      * split; [intros _; right; split; [reflexivity | cbn in *; lia] | reflexivity].
      * split; [discriminate | intros [[-> _] | [E _]]; [cbn in *; lia | discriminate]].
    + split; [discriminate | ]. intros [[-> N] | [-> N]].
      * destruct vs; [congruence | cbn in *; lia].
      * cbn in *. lia.
Qed.

Lemma alter_same : forall vs, alter (length vs) vs = Some vs.
Proof.
  intros vs. unfold Variants.alter. rewrite Nat.ltb_irrefl. reflexivity.
Qed.

(* ---------------- one operation, one variant *)

Lemma apply_op_length : forall i o vs out, apply_op i o vs = Some out -> length out = len_after o (length vs).
Proof.
  intros i o vs out H. destruct o as [xs d | f | n]; cbn in H |- *.
  - injection H as <-. apply zip_stream_length.
  - injection H as <-. apply map_length.
  - eapply alter_length; eauto.
Qed.

Lemma anc_op_lt : forall i o vs out j, apply_op i o vs = Some out -> j < length out ->
  anc_op o (length vs) j < length vs.
Proof.
  intros i o vs out j H Hj. pose proof (apply_op_length i o vs out H) as L.
  destruct o as [xs d | f | n]; cbn in *.
  - lia.
  - lia.
  - assert (vs <> []).
    { intros ->. unfold Variants.alter in H. cbn in H. destruct n; [cbn in *; lia | discriminate]. }
    destruct vs; [congruence | cbn [length]; lia].
Qed.

(* variant j after the operation = the per-variant function applied to its ancestor *)
Lemma apply_op_nth : forall i o vs out j, apply_op i o vs = Some out -> j < length out ->
  nth j out dv = single_op i o j (nth (anc_op o (length vs) j) vs dv).
Proof.
  intros i o vs out j H Hj. pose proof (apply_op_length i o vs out H) as L.
  destruct o as [xs d | f | n]; cbn in *.
  - injection H as <-. apply zip_stream_nth. lia.
  - injection H as <-. rewrite (nth_indep _ dv (f i dv)) by (rewrite map_length; lia).
    apply map_nth.
  - eapply alter_nth; eauto. lia.
Qed.

(* ---------------- whole histories *)

Theorem run_length : forall i ops vs out, run i ops vs = Some out ->
  length out = fold_left (fun len o => len_after o len) ops (length vs).
Proof.
  intros i. induction ops as [ | o r IH]; intros vs out H; cbn in *.
  - injection H as <-. reflexivity.
  - destruct (apply_op i o vs) as [vs' | ] eqn:E; [ | discriminate].
    rewrite (IH vs' out H). rewrite (apply_op_length i o vs vs' E). reflexivity.
Qed.

Theorem anc_run_lt : forall i ops vs out k, run i ops vs = Some out -> k < length out ->
  anc_run ops (length vs) k < length vs.
Proof.
  intros i. induction ops as [ | o r IH]; intros vs out k H Hk; cbn in *.
  - injection H as <-. assumption.
  - destruct (apply_op i o vs) as [vs' | ] eqn:E; [ | discriminate].
    rewrite <- (apply_op_length i o vs vs' E).
    eapply anc_op_lt; eauto.
Qed.

(* Variant k after ANY history of assign / per-variant operations / alter_num_variants is the result of
   its own single-variant history applied to its ancestor. *)
Theorem variant_pointwise_history : forall i ops vs out k, run i ops vs = Some out -> k < length out ->
  nth k out dv = fun_run i ops (length vs) k (nth (anc_run ops (length vs) k) vs dv).
Proof.
  intros i. induction ops as [ | o r IH]; intros vs out k H Hk; cbn in *.
  - injection H as <-. reflexivity.
  - destruct (apply_op i o vs) as [vs' | ] eqn:E; [ | discriminate].
    pose proof (apply_op_length i o vs vs' E) as L.
    rewrite (IH vs' out k H Hk). rewrite L.
    f_equal. rewrite <- L. apply apply_op_nth; [assumption | ].
    eapply anc_run_lt; eauto.
Qed.

(* a single-variant model that is given variant k's own inputs goes through the same values *)
Lemma run_project_single : forall i ops len k v,
  run i (project ops len k) [v] = Some [fun_run i ops len k v].
Proof.
  intros i. induction ops as [ | o r IH]; intros len k v.
  - reflexivity.
  - destruct o as [xs d | f | n]; simpl; apply IH.
Qed.

(* a history of per-variant operations only: nothing moves, the functions are applied in order *)
Lemma maps_history : forall i (fs : list (I -> V -> V)) len k v,
  fold_left (fun len o => len_after o len) (map OMap fs) len = len /\
  anc_run (map OMap fs) len k = k /\
  fun_run i (map OMap fs) len k v = fold_left (fun v f => f i v) fs v.
Proof.
  intros i fs len k. induction fs as [ | f fs IH]; intros v; [auto | ].
  destruct (IH (f i v)) as (IH1 & IH2 & IH3). cbn. rewrite IH2. auto.
Qed.

End Proofs.
