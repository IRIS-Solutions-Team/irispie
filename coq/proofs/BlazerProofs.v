(* Proofs about the blazer model (coq/model/Blazer.v). *)
From Coq Require Import List Arith Bool Lia Permutation Morphisms.
From Verif Require Import gen.BlazerGen model.Blazer.
Import ListNotations.

(* ------------------------------------------------------------------ generic list facts *)

Lemma mem_In : forall x l, mem x l = true <-> In x l.
Proof.
  intros x l. unfold mem. rewrite existsb_exists. split.
  - intros [y [Hy He]]. apply Nat.eqb_eq in He. subst. exact Hy.
  - intros H. exists x. split; [exact H | apply Nat.eqb_refl].
Qed.

Lemma mem_false : forall x l, mem x l = false <-> ~ In x l.
Proof. intros x l. rewrite <- mem_In. symmetry. apply not_true_iff_false. Qed.

Lemma nat_list_eqb_eq : forall a b, nat_list_eqb a b = true <-> a = b.
Proof.
  induction a as [|x a IH]; destruct b as [|y b]; simpl; split; intros H; try congruence; try reflexivity.
  - apply andb_true_iff in H. destruct H as [H1 H2]. apply Nat.eqb_eq in H1. apply IH in H2. congruence.
  - inversion H; subst. rewrite Nat.eqb_refl. simpl. apply IH. reflexivity.
Qed.

Lemma Permutation_filter : forall {A} (f : A -> bool) l l',
  Permutation l l' -> Permutation (filter f l) (filter f l').
Proof.
  intros A f l l' H. induction H; simpl.
  - constructor.
  - destruct (f x); [constructor|]; assumption.
  - destruct (f x), (f y); try apply Permutation_refl. apply perm_swap.
  - eapply Permutation_trans; eassumption.
Qed.

Lemma filter_split_perm : forall {A} (f : A -> bool) l,
  Permutation l (filter f l ++ filter (fun x => negb (f x)) l).
Proof.
  intros A f l. induction l as [|x l IH]; simpl.
  - constructor.
  - destruct (f x); simpl.
    + constructor. exact IH.
    + apply Permutation_cons_app. exact IH.
Qed.

Lemma filter_all_true : forall {A} (f : A -> bool) l, (forall x, In x l -> f x = true) -> filter f l = l.
Proof.
  intros A f l. induction l as [|x l IH]; simpl; intros H; [reflexivity|].
  rewrite (H x (or_introl eq_refl)). f_equal. apply IH. intros y Hy. apply H. right. exact Hy.
Qed.

Lemma filter_all_false : forall {A} (f : A -> bool) l, (forall x, In x l -> f x = false) -> filter f l = [].
Proof.
  intros A f l. induction l as [|x l IH]; simpl; intros H; [reflexivity|].
  rewrite (H x (or_introl eq_refl)). apply IH. intros y Hy. apply H. right. exact Hy.
Qed.

Lemma map_filter_comm : forall {A B} (g : A -> B) (fA : A -> bool) (fB : B -> bool) l,
  (forall x, In x l -> fA x = fB (g x)) -> map g (filter fA l) = filter fB (map g l).
Proof.
  intros A B g fA fB l. induction l as [|x l IH]; simpl; intros H; [reflexivity|].
  rewrite <- (H x (or_introl eq_refl)), <- IH by (intros y Hy; apply H; right; exact Hy).
  destruct (fA x); reflexivity.
Qed.

Lemma count_perm : forall {A} (f : A -> bool) l l', Permutation l l' -> count f l = count f l'.
Proof. intros. unfold count. apply Permutation_length. apply Permutation_filter. assumption. Qed.

(* a list whose f-filtered length is 1 and that contains x with f x is filtered to [x] *)
Lemma single_filter : forall {A} (f : A -> bool) l x, count f l = 1 -> In x l -> f x = true -> filter f l = [x].
Proof.
  intros A f l x Hc Hin Hf. unfold count in Hc.
  assert (Hx : In x (filter f l)) by (apply filter_In; tauto).
  destruct (filter f l) as [|y [|z r]]; simpl in Hc; try discriminate.
  destruct Hx as [Hx|[]]. subst. reflexivity.
Qed.

Lemma single_unique : forall {A} (f : A -> bool) l x y,
  count f l = 1 -> In x l -> f x = true -> In y l -> f y = true -> y = x.
Proof.
  intros A f l x y Hc Hx Hfx Hy Hfy.
  assert (Hin : In y (filter f l)) by (apply filter_In; tauto).
  rewrite (single_filter f l x Hc Hx Hfx) in Hin. destruct Hin as [Hin|[]]. congruence.
Qed.

Lemma NoDup_map_inj_in : forall {A B} (g : A -> B) l x y,
  NoDup (map g l) -> In x l -> In y l -> g x = g y -> x = y.
Proof.
  intros A B g l. induction l as [|a l IH]; simpl; intros x y H Hx Hy E; [contradiction|].
  inversion H; subst.
  destruct Hx as [Hx|Hx], Hy as [Hy|Hy]; subst.
  - reflexivity.
  - exfalso. apply H2. rewrite E. apply in_map. exact Hy.
  - exfalso. apply H2. rewrite <- E. apply in_map. exact Hx.
  - apply IH; assumption.
Qed.

Lemma NoDup_app_l : forall {A} (a b : list A), NoDup (a ++ b) -> NoDup a.
Proof.
  intros A a b. induction a as [|x a IH]; simpl; intros H; [constructor|].
  inversion H; subst. constructor; [|apply IH; assumption].
  intros Hin. apply H2. apply in_or_app. left. exact Hin.
Qed.

Lemma NoDup_app_r : forall {A} (a b : list A), NoDup (a ++ b) -> NoDup b.
Proof.
  intros A a b. induction a as [|x a IH]; simpl; intros H; [assumption|].
  inversion H; subst. apply IH. assumption.
Qed.

(* nth of a map, whatever the two defaults *)
Lemma nth_map : forall {A B} (f : A -> B) l i d d', i < length l -> nth i (map f l) d = f (nth i l d').
Proof.
  intros A B f l i d d' H. rewrite (nth_indep _ d (f d')) by (rewrite map_length; exact H). apply map_nth.
Qed.

Lemma map_nth_seq : forall {A} (d : A) l, map (fun i => nth i l d) (seq 0 (length l)) = l.
Proof.
  intros A d l. apply nth_ext with (d := d) (d' := d).
  - rewrite map_length, seq_length. reflexivity.
  - intros n Hn. rewrite map_length, seq_length in Hn.
    rewrite (nth_map _ _ _ _ 0) by (rewrite seq_length; exact Hn). rewrite seq_nth by exact Hn. reflexivity.
Qed.

Lemma permute_perm : forall {A} (d : A) p l, Permutation p (seq 0 (length l)) -> Permutation (permute d p l) l.
Proof. intros A d p l H. unfold permute. rewrite H, map_nth_seq. reflexivity. Qed.

Lemma Permutation_concat_map : forall {A B} (f g : A -> list B) l,
  (forall x, In x l -> Permutation (f x) (g x)) -> Permutation (concat (map f l)) (concat (map g l)).
Proof.
  intros A B f g l. induction l as [|x l IH]; simpl; intros H; [constructor|].
  apply Permutation_app; [apply H; left; reflexivity | apply IH; intros y Hy; apply H; right; exact Hy].
Qed.

(* ------------------------------------------------------------------ sorted(...) *)

Lemma insert_perm : forall x l, Permutation (insert x l) (x :: l).
Proof.
  intros x l. induction l as [|y l IH]; simpl; [reflexivity|].
  destruct (x <=? y); [reflexivity|]. rewrite IH. apply perm_swap.
Qed.

Lemma sortn_perm : forall l, Permutation (sortn l) l.
Proof. induction l as [|x l IH]; simpl; [constructor|]. rewrite insert_perm, IH. reflexivity. Qed.

Lemma insert_comm : forall a b l, insert a (insert b l) = insert b (insert a l).
Proof.
  (* every outcome of the comparisons; where both orders are possible the two keys are equal *)
  intros a b l. induction l as [|y l IH]; simpl;
    repeat (match goal with |- context [?u <=? ?v] => destruct (Nat.leb_spec u v) end; simpl);
    try lia; try reflexivity.
  1, 2: replace b with a by lia; reflexivity.
  f_equal. exact IH.
Qed.

Lemma sortn_perm_eq : forall l l', Permutation l l' -> sortn l = sortn l'.
Proof.
  intros l l' H. induction H; simpl.
  - reflexivity.
  - f_equal. exact IHPermutation.
  - apply insert_comm.
  - congruence.
Qed.

Lemma sortn_seq : forall n a, sortn (seq a n) = seq a n.
Proof.
  induction n as [|n IH]; intros a; simpl; [reflexivity|].
  rewrite IH. destruct n; simpl; [reflexivity|].
  destruct (a <=? S a) eqn:E; [reflexivity|]. apply Nat.leb_gt in E. lia.
Qed.

Lemma sortn_is_range : forall l n, sortn l = seq 0 n <-> Permutation l (seq 0 n).
Proof.
  intros l n. split; intros H.
  - rewrite <- H. symmetry. apply sortn_perm.
  - rewrite (sortn_perm_eq _ _ H). apply sortn_seq.
Qed.

(* ------------------------------------------------------------------ the core, over a fixed incidence *)

Section CoreProofs.
Variable inc : nat -> nat -> bool.

(* no incidence between the equations A and the quantities B: a zero corner of the matrix *)
Definition zero (A B : list nat) : Prop := forall e q, In e A -> In q B -> inc e q = false.

(* block lower triangular: no equation of a block involves a quantity of a LATER block *)
Fixpoint Tri (bs : list block) : Prop :=
  match bs with
  | [] => True
  | b :: r => zero (fst b) (bqids r) /\ Tri r
  end.

(* a perfect matching of the equations E with the quantities Q, as a function on ids *)
Definition PMf (s : nat -> nat) (E Q : list nat) : Prop :=
  Permutation (map s E) Q /\ forall e, In e E -> inc e (s e) = true.

(* triangularity of a sequence of 1x1 blocks (e, s e) *)
Fixpoint TriS (s : nat -> nat) (l : list nat) : Prop :=
  match l with
  | [] => True
  | e :: r => zero [e] (map s r) /\ TriS s r
  end.

Definition square (b : block) : Prop := length (fst b) = length (snd b).

Instance zero_perm : Proper (@Permutation nat ==> @Permutation nat ==> iff) zero.
Proof.
  intros A A' HA B B' HB. unfold zero. split; intros H e q He Hq.
  - apply H; [rewrite HA | rewrite HB]; assumption.
  - apply H; [rewrite <- HA | rewrite <- HB]; assumption.
Qed.

Lemma zero_incl : forall A B A' B', zero A B -> incl A' A -> incl B' B -> zero A' B'.
Proof. unfold zero, incl. intros. apply H; auto. Qed.

Lemma zero_app_l : forall A A' B, zero (A ++ A') B <-> zero A B /\ zero A' B.
Proof.
  unfold zero. intros. split.
  - intros H. split; intros; apply H; auto; apply in_or_app; auto.
  - intros [H1 H2] e q He Hq. apply in_app_or in He. destruct He; auto.
Qed.

Lemma zero_app_r : forall A B B', zero A (B ++ B') <-> zero A B /\ zero A B'.
Proof.
  unfold zero. intros. split.
  - intros H. split; intros; apply H; auto; apply in_or_app; auto.
  - intros [H1 H2] e q He Hq. apply in_app_or in Hq. destruct Hq; auto.
Qed.

Lemma zero_nil_l : forall B, zero [] B.
Proof. intros B e q []. Qed.

Lemma zero_nil_r : forall A, zero A [].
Proof. intros A e q _ []. Qed.

Lemma beids_app : forall a b, beids (a ++ b) = beids a ++ beids b.
Proof. intros. unfold beids. rewrite map_app, concat_app. reflexivity. Qed.

Lemma bqids_app : forall a b, bqids (a ++ b) = bqids a ++ bqids b.
Proof. intros. unfold bqids. rewrite map_app, concat_app. reflexivity. Qed.

Lemma Tri_app : forall a b, Tri (a ++ b) <-> Tri a /\ Tri b /\ zero (beids a) (bqids b).
Proof.
  induction a as [|x a IH]; intros b; simpl.
  - pose proof (zero_nil_l (bqids b)). tauto.
  - rewrite IH, bqids_app, zero_app_r.
    change (beids (x :: a)) with (fst x ++ beids a). rewrite zero_app_l. tauto.
Qed.

Lemma TriS_app : forall s a b, TriS s (a ++ b) <-> TriS s a /\ TriS s b /\ zero a (map s b).
Proof.
  intros s. induction a as [|x a IH]; intros b; simpl.
  - pose proof (zero_nil_l (map s b)). tauto.
  - rewrite IH, map_app, zero_app_r.
    change (x :: a) with ([x] ++ a). rewrite zero_app_l. tauto.
Qed.

Lemma singles_map : forall s l, singles l (map s l) = map (fun e => ([e], [s e])) l.
Proof.
  intros s l. unfold singles. induction l as [|x l IH]; simpl; [reflexivity|]. f_equal. exact IH.
Qed.

Lemma concat_map_single : forall {A B} (f : A -> B) l, concat (map (fun x => [f x]) l) = map f l.
Proof. intros A B f l. induction l as [|x l IH]; simpl; [reflexivity|]. f_equal. exact IH. Qed.

Lemma beids_singles : forall s l, beids (singles l (map s l)) = l.
Proof. intros. rewrite singles_map. unfold beids. rewrite map_map. simpl. rewrite concat_map_single. apply map_id. Qed.

Lemma bqids_singles : forall s l, bqids (singles l (map s l)) = map s l.
Proof. intros. rewrite singles_map. unfold bqids. rewrite map_map. simpl. apply concat_map_single. Qed.

Lemma Tri_singles : forall s l, Tri (singles l (map s l)) <-> TriS s l.
Proof.
  intros s l. induction l as [|x l IH]; [reflexivity|].
  change (singles (x :: l) (map s (x :: l))) with (([x], [s x]) :: singles l (map s l)).
  simpl. rewrite IH, bqids_singles. reflexivity.
Qed.

Lemma square_singles : forall s l, Forall square (singles l (map s l)).
Proof.
  intros. rewrite singles_map. apply Forall_forall. intros b Hb. apply in_map_iff in Hb.
  destruct Hb as [e [E _]]. subst. reflexivity.
Qed.

Lemma TriS_offdiag : forall s l, NoDup l ->
  (forall e e', In e l -> In e' l -> e <> e' -> inc e (s e') = false) -> TriS s l.
Proof.
  intros s l H. induction H as [|x l Hx Hnd IH]; simpl; intros Hoff; [exact I|]. split.
  - intros e q [<-|[]] Hq. apply in_map_iff in Hq. destruct Hq as [e' [<- He']].
    apply Hoff; [left; reflexivity | right; exact He' |]. intros E. subst. contradiction.
  - apply IH. intros e e' He He' Hne. apply Hoff; [right; exact He | right; exact He' | exact Hne].
Qed.

Lemma TriS_filter : forall s f l, TriS s l -> TriS s (filter f l).
Proof.
  intros s f l. induction l as [|x l IH]; simpl; [trivial|]. intros [H1 H2].
  destruct (f x); simpl; [split|]; try (apply IH; exact H2).
  eapply zero_incl; [exact H1 | apply incl_refl | apply incl_map, incl_filter].
Qed.

Lemma PMf_length : forall s E Q, PMf s E Q -> length E = length Q.
Proof. intros s E Q [H _]. apply Permutation_length in H. rewrite map_length in H. exact H. Qed.

Lemma PMf_map : forall s E Q, PMf s E Q -> Permutation (map s E) Q.
Proof. intros s E Q H. apply H. Qed.

Lemma PMf_inc : forall s E Q e, PMf s E Q -> In e E -> inc e (s e) = true.
Proof. intros s E Q e H. apply H. Qed.

Lemma PMf_in : forall s E Q e, PMf s E Q -> In e E -> In (s e) Q.
Proof. intros s E Q e [H _] He. rewrite <- H. apply in_map. exact He. Qed.

Lemma PMf_NoDup_map : forall s E Q, PMf s E Q -> NoDup Q -> NoDup (map s E).
Proof. intros s E Q [H _] Hq. rewrite H. exact Hq. Qed.

Lemma PMf_NoDup : forall s E Q, PMf s E Q -> NoDup Q -> NoDup E.
Proof. intros s E Q H Hq. apply (NoDup_map_inv s). eapply PMf_NoDup_map; eassumption. Qed.

Lemma PMf_preimage : forall s E Q q, PMf s E Q -> In q Q -> exists e, In e E /\ s e = q.
Proof.
  intros s E Q q [H _] Hq. rewrite <- H in Hq.
  apply in_map_iff in Hq. destruct Hq as [e [E1 He]]. exists e. tauto.
Qed.

Lemma PMf_perm : forall s E Q E' Q', Permutation E' E -> Permutation Q' Q -> PMf s E Q -> PMf s E' Q'.
Proof.
  intros s E Q E' Q' HE HQ [H Hi]. split; [rewrite HE, HQ; exact H|].
  intros e He. apply Hi. rewrite <- HE. exact He.
Qed.

(* splitting both sides of a matching by predicates that agree along it *)
Lemma PMf_filter : forall s E Q fE fQ,
  (forall e, In e E -> fE e = fQ (s e)) -> PMf s E Q -> PMf s (filter fE E) (filter fQ Q).
Proof.
  intros s E Q fE fQ Hf [Hp Hi]. split.
  - rewrite (map_filter_comm s fE fQ E Hf). apply Permutation_filter. exact Hp.
  - intros e He. apply Hi. apply filter_In in He. tauto.
Qed.

(* ---------------------------------------------------------------- peeling singleton blocks off a matched matrix *)

(* E x Q comes apart into the singleton blocks (e, s e) for e in A, an inner part E' x Q' that is still perfectly
   matched, and the singleton blocks (e, s e) for e in B; in that order the whole is block lower triangular *)
Record Peel (s : nat -> nat) (A B E Q E' Q' : list nat) : Prop := mkPeel {
  pl_E : Permutation E (A ++ E' ++ B);
  pl_Q : Permutation Q (map s A ++ Q' ++ map s B);
  pl_tA : TriS s A;
  pl_tB : TriS s B;
  pl_zA : zero A (Q' ++ map s B);
  pl_zB : zero E' (map s B);
  pl_pm : PMf s E' Q';
  pl_nd : NoDup Q'
}.
Arguments pl_pm {s A B E Q E' Q'}.
Arguments pl_nd {s A B E Q E' Q'}.

Lemma Peel_refl : forall s E Q, PMf s E Q -> NoDup Q -> Peel s [] [] E Q E Q.
Proof. intros s E Q HPM HQ. constructor; simpl; rewrite ?app_nil_r; auto using zero_nil_l, zero_nil_r. Qed.

(* peeling the inner part again *)
Lemma Peel_trans : forall {s A B A' B' E Q E' Q' E'' Q''},
  Peel s A B E Q E' Q' -> Peel s A' B' E' Q' E'' Q'' -> Peel s (A ++ A') (B' ++ B) E Q E'' Q''.
Proof.
  intros s A B A' B' E Q E' Q' E'' Q'' [HE HQ HtA HtB HzA HzB _ _] [HE' HQ' HtA' HtB' HzA' HzB' Hpm Hnd].
  rewrite HQ' in HzA. rewrite HE' in HzB.
  rewrite !zero_app_r in HzA. rewrite !zero_app_l in HzB. rewrite zero_app_r in HzA'.
  destruct HzA as ((HAA' & HAi & HAB') & HAB), HzB as (HA'B & HiB & HB'B), HzA' as (HA'i & HA'B').
  constructor.
  - rewrite HE, HE', <- !app_assoc. reflexivity.
  - rewrite HQ, HQ', !map_app, <- !app_assoc. reflexivity.
  - apply TriS_app. repeat split; assumption.
  - apply TriS_app. repeat split; assumption.
  - rewrite map_app, zero_app_l, !zero_app_r. repeat split; assumption.
  - rewrite map_app. apply zero_app_r. split; assumption.
  - exact Hpm.
  - exact Hnd.
Qed.

(* ---------------------------------------------------------------- _prefetch_first *)

Lemma prefetch_first_rows : forall E Q F QF E1 Q1, prefetch_first inc E Q = (F, QF, E1, Q1) ->
  forall e, In e E -> rowsum inc Q e = 1 -> In e F.
Proof.
  unfold prefetch_first. intros E Q F QF E1 Q1 [= <- _ _ _] e He Hc.
  apply filter_In. rewrite Hc. split; [exact He | reflexivity].
Qed.

Lemma prefetch_first_spec : forall s E Q F QF E1 Q1,
  NoDup Q -> PMf s E Q ->
  prefetch_first inc E Q = (F, QF, E1, Q1) ->
  QF = map s F /\ Peel s F [] E Q E1 Q1.
Proof.
  intros s E Q F QF E1 Q1 HQ HPM. unfold prefetch_first. change singleton_row_count with 1.
  set (single := fun e => rowsum inc Q e =? 1). intros [= <- <- <- <-].
  assert (Hinj := PMf_NoDup_map _ _ _ HPM HQ).
  (* the only incidence of a singleton row is its matched quantity *)
  assert (Hsole : forall e q, In e (filter single E) -> In q Q -> inc e q = true -> q = s e).
  { intros e q He Hq Hi. apply filter_In in He. destruct He as [He Hc]. apply Nat.eqb_eq in Hc.
    apply (single_unique (inc e) Q (s e) q Hc); [eapply PMf_in; eassumption | eapply PMf_inc; eassumption | exact Hq | exact Hi]. }
  assert (Hcol : forall e, In e (filter single E) -> hd 0 (filter (inc e) Q) = s e).
  { intros e He. destruct (proj1 (filter_In _ _ _) He) as [He' Hc]. apply Nat.eqb_eq in Hc.
    rewrite (single_filter (inc e) Q (s e) Hc); [reflexivity | eapply PMf_in; eassumption | eapply PMf_inc; eassumption]. }
  rewrite (map_ext_in _ s _ Hcol). set (F := filter single E) in *.
  assert (Hmem : forall e, In e E -> mem (s e) (map s F) = single e).
  { intros e He. apply eq_true_iff_eq. rewrite mem_In, in_map_iff. unfold F. split.
    - intros [e' [Eq He']]. apply filter_In in He'. destruct He' as [He' Hs].
      rewrite <- (NoDup_map_inj_in s E e' e Hinj He' He Eq). exact Hs.
    - intros Hs. exists e. split; [reflexivity | apply filter_In; split; assumption]. }
  assert (HPM1 : PMf s (filter (fun e => negb (single e)) E) (filter (fun q => negb (mem q (map s F))) Q)).
  { apply PMf_filter; [|exact HPM]. intros e He. rewrite Hmem by exact He. reflexivity. }
  split; [reflexivity|].
  constructor; rewrite ?app_nil_r; [apply filter_split_perm | | | exact I | | apply zero_nil_r | exact HPM1 |].
  - rewrite <- (PMf_map _ _ _ HPM1), <- map_app. unfold F. rewrite <- (filter_split_perm single E). symmetry. apply PMf_map, HPM.
  - apply TriS_offdiag.
    + apply NoDup_filter. eapply PMf_NoDup; eassumption.
    + intros e e' He He' Hne. apply not_true_is_false. intros Hi. apply Hne.
      apply filter_In in He'. destruct He' as [He' _].
      apply (NoDup_map_inj_in s E e e' Hinj); [apply filter_In in He; apply He | exact He' |].
      symmetry. apply Hsole; [exact He | eapply PMf_in; eassumption | exact Hi].
  - intros e q He Hq. apply filter_In in Hq. destruct Hq as [Hq Hn].
    apply not_true_is_false. intros Hi. rewrite (Hsole e q He Hq Hi) in Hn.
    apply negb_true_iff, mem_false in Hn. apply Hn. apply in_map. exact He.
  - apply NoDup_filter. exact HQ.
Qed.

(* ---------------------------------------------------------------- _prefetch_last *)

Lemma prefetch_last_spec : forall s E Q Le Lq E2 Q2,
  NoDup Q -> PMf s E Q ->
  prefetch_last inc E Q = (Le, Lq, E2, Q2) ->
  Lq = map s Le /\ Peel s [] Le E Q E2 Q2.
Proof.
  intros s E Q Le Lq E2 Q2 HQ HPM. unfold prefetch_last. change singleton_column_count with 1.
  set (single := fun q => colsum inc E q =? 1). set (c := fun q => hd 0 (filter (fun e => inc e q) E)).
  intros [= <- <- <- <-]. set (Lq := filter single Q).
  assert (Hinj := PMf_NoDup_map _ _ _ HPM HQ).
  (* a singleton column is incident to its matched equation only *)
  assert (Hsole : forall e e', In e E -> single (s e) = true -> In e' E -> inc e' (s e) = true -> e' = e).
  { intros e e' He Hs. apply Nat.eqb_eq in Hs.
    apply (single_unique (fun e' => inc e' (s e)) E e e' Hs He). eapply PMf_inc; eassumption. }
  assert (Hc : forall e, In e E -> single (s e) = true -> c (s e) = e).
  { intros e He Hs. apply Nat.eqb_eq in Hs. unfold c.
    rewrite (single_filter (fun e' => inc e' (s e)) E e Hs He); [reflexivity | eapply PMf_inc; eassumption]. }
  assert (HLe : forall e, In e (map c Lq) -> In e E /\ single (s e) = true).
  { intros e He. apply in_map_iff in He. destruct He as [q [<- Hq]]. apply filter_In in Hq. destruct Hq as [Hq Hs].
    destruct (PMf_preimage _ _ _ _ HPM Hq) as [e [He <-]]. rewrite Hc by assumption. split; assumption. }
  assert (Hmem : forall e, In e E -> mem e (map c Lq) = single (s e)).
  { intros e He. apply eq_true_iff_eq. rewrite mem_In. split; [apply HLe|]. intros Hs.
    rewrite <- (Hc e He Hs). apply in_map. apply filter_In. split; [eapply PMf_in; eassumption | exact Hs]. }
  assert (HLq : map s (map c Lq) = Lq).
  { rewrite map_map. rewrite <- (map_id Lq) at 2. apply map_ext_in. intros q Hq.
    apply filter_In in Hq. destruct Hq as [Hq Hs].
    destruct (PMf_preimage _ _ _ _ HPM Hq) as [e [He <-]]. rewrite Hc by assumption. reflexivity. }
  assert (HndLe : NoDup (map c Lq)).
  { apply (NoDup_map_inv s). rewrite HLq. apply NoDup_filter. exact HQ. }
  set (Le := map c Lq) in *.
  split; [symmetry; exact HLq|].
  constructor; [| | exact I | | apply zero_nil_l | | |]; rewrite ?HLq; simpl.
  - rewrite Permutation_app_comm, (filter_split_perm (fun e => mem e Le) E) at 1.
    apply Permutation_app_tail. apply NoDup_Permutation.
    + apply NoDup_filter. eapply PMf_NoDup; eassumption.
    + exact HndLe.
    + intros e. rewrite filter_In, mem_In. split; [intros [_ He]; exact He|]. intros He. split; [apply HLe|]; exact He.
  - rewrite Permutation_app_comm. apply filter_split_perm.
  - apply TriS_offdiag; [exact HndLe|]. intros e e' He He' Hne.
    apply not_true_is_false. intros Hi. apply Hne. apply HLe in He, He'.
    apply (Hsole e' e); [apply He' | apply He' | apply He | exact Hi].
  - intros e q He Hq. apply filter_In in He. destruct He as [He Hn]. rewrite Hmem in Hn by exact He.
    rewrite <- HLq in Hq. apply in_map_iff in Hq. destruct Hq as [e' [<- He']]. apply HLe in He'.
    destruct He' as [He' Hs]. apply not_true_is_false. intros Hi.
    rewrite (Hsole e' e He' Hs He Hi), Hs in Hn. discriminate.
  - apply PMf_filter; [|exact HPM]. intros e He. rewrite Hmem by exact He. reflexivity.
  - apply NoDup_filter. exact HQ.
Qed.

(* ---------------------------------------------------------------- prefetch (the recursion) *)

(* what prefetch returns: its first and last equations are peeled off E x Q, its inner part remains *)
Definition PreSpec (s : nat -> nat) (E Q : list nat) (r : prefetched) : Prop :=
  p_qf r = map s (p_ef r) /\ p_ql r = map s (p_el r) /\ Peel s (p_ef r) (p_el r) E Q (p_ei r) (p_qi r).

Lemma PreSpec_stop : forall s E Q, PMf s E Q -> NoDup Q -> PreSpec s E Q (mkPre [] [] [] [] E Q).
Proof. intros s E Q HPM HQ. split; [reflexivity | split; [reflexivity | apply Peel_refl; assumption]]. Qed.

Lemma PreSpec_wrap : forall s A B E Q E' Q' r, Peel s A B E Q E' Q' -> PreSpec s E' Q' r ->
  PreSpec s E Q (mkPre (A ++ p_ef r) (map s A ++ p_qf r) (p_el r ++ B) (p_ql r ++ map s B) (p_ei r) (p_qi r)).
Proof.
  intros s A B E Q E' Q' r P (Hqf & Hql & Pr). unfold PreSpec. simpl. rewrite Hqf, Hql, !map_app.
  split; [reflexivity | split; [reflexivity | exact (Peel_trans P Pr)]].
Qed.

(* one level: all singleton rows A, then the singleton columns B of the rest, are peeled off and put around what
   prefetch returns for the rest, which is the rest itself, untouched, when the recursion stops *)
Lemma prefetch_level : forall s E Q, NoDup Q -> PMf s E Q -> forall fuel, exists A B E2 Q2,
  Peel s A B E Q E2 Q2 /\ (forall e, In e E -> rowsum inc Q e = 1 -> In e A) /\
  prefetch inc fuel E Q =
  let stop := mkPre [] [] [] [] E2 Q2 in
  let r := if msize E2 Q2 <? msize E Q
           then match fuel with 0 => stop | S f => prefetch inc f E2 Q2 end
           else stop in
  mkPre (A ++ p_ef r) (map s A ++ p_qf r) (p_el r ++ B) (p_ql r ++ map s B) (p_ei r) (p_qi r).
Proof.
  intros s E Q HQ HPM fuel.
  destruct (prefetch_first inc E Q) as [[[F QF] E1] Q1] eqn:H1.
  destruct (prefetch_first_spec _ _ _ _ _ _ _ HQ HPM H1) as [-> P1].
  destruct (prefetch_last inc E1 Q1) as [[[Le Lq] E2] Q2] eqn:H2.
  destruct (prefetch_last_spec _ _ _ _ _ _ _ (pl_nd P1) (pl_pm P1) H2) as [-> P2].
  pose proof (Peel_trans P1 P2) as P. rewrite !app_nil_r in P.
  exists F, Le, E2, Q2. split; [exact P|]. split.
  - intros e He Hc. eapply prefetch_first_rows; eassumption.
  - destruct fuel; cbn [prefetch]; rewrite H1; cbv beta iota; rewrite H2; cbv beta iota;
      destruct (msize E2 Q2 <? msize E Q); simpl; rewrite ?app_nil_r; reflexivity.
Qed.

Lemma prefetch_spec : forall s fuel E Q, NoDup Q -> PMf s E Q -> PreSpec s E Q (prefetch inc fuel E Q).
Proof.
  intros s fuel. induction fuel as [|f IH]; intros E Q HQ HPM;
    edestruct (prefetch_level s E Q HQ HPM) as (A & B & E2 & Q2 & P & _ & ->);
    apply (PreSpec_wrap _ _ _ _ _ _ _ _ P); destruct P as [_ _ _ _ _ _ HPM2 HQ2];
    destruct (msize E2 Q2 <? msize E Q); auto using PreSpec_stop.
Qed.

(* the fuel given by the callers (the size of the matrix) is enough: more fuel changes nothing *)
Lemma prefetch_fuel_irrelevant : forall f1 f2 E Q,
  msize E Q <= f1 -> msize E Q <= f2 -> prefetch inc f1 E Q = prefetch inc f2 E Q.
Proof.
  induction f1 as [|f1 IH]; intros [|f2] E Q H1 H2; cbn [prefetch]; try reflexivity;
    destruct (prefetch_first inc E Q) as [[[F QF] E1] Q1];
    destruct (prefetch_last inc E1 Q1) as [[[Le Lq] E2] Q2];
    destruct (msize E2 Q2 <? msize E Q) eqn:Hlt; try reflexivity; apply Nat.ltb_lt in Hlt; try lia.
  rewrite (IH f2 E2 Q2) by lia. reflexivity.
Qed.

(* the order eids_first + eids_last is causal *)
Lemma PreSpec_singles_causal : forall s E Q r, PreSpec s E Q r -> TriS s (p_ef r ++ p_el r).
Proof.
  intros s E Q r (_ & _ & [_ _ rtf rtl rzf _ _ _]). rewrite zero_app_r in rzf.
  apply TriS_app. split; [exact rtf | split; [exact rtl | apply rzf]].
Qed.

(* the first equation of a causal order is a singleton row: peeling makes progress *)
Lemma prefetch_progress : forall s A B E Q E2 Q2,
  PMf s E Q -> Peel s A B E Q E2 Q2 -> (forall e, In e E -> rowsum inc Q e = 1 -> In e A) ->
  (exists ord, Permutation ord E /\ TriS s ord) ->
  E2 = [] \/ msize E2 Q2 < msize E Q.
Proof.
  intros s A B E Q E2 Q2 HPM [HE _ _ _ _ _ HPM2 _] Hrows [[|e0 rest] [Hperm Hord]].
  - left. apply Permutation_nil in Hperm. subst E. apply Permutation_nil in HE.
    destruct A; [|discriminate]. destruct E2; [reflexivity | discriminate].
  - right. assert (He0 : In e0 E) by (rewrite <- Hperm; left; reflexivity).
    assert (HA : In e0 A).
    { apply (Hrows e0 He0). unfold rowsum.
      rewrite <- (count_perm (inc e0) _ _ (PMf_map _ _ _ HPM)), <- (count_perm (inc e0) _ _ (Permutation_map s Hperm)).
      unfold count. simpl. rewrite (PMf_inc _ _ _ _ HPM He0). simpl. f_equal.
      rewrite filter_all_false; [reflexivity|]. intros q Hq. apply (proj1 Hord); [left; reflexivity | exact Hq]. }
    apply Permutation_length in HE. rewrite !app_length in HE. apply PMf_length in HPM, HPM2.
    unfold msize. rewrite <- HPM, <- HPM2. destruct A; [destruct HA|]. simpl in HE. apply Nat.mul_lt_mono; lia.
Qed.

Lemma TriS_restrict : forall s ord E E', NoDup E -> NoDup E' -> incl E' E ->
  Permutation ord E -> TriS s ord -> exists ord', Permutation ord' E' /\ TriS s ord'.
Proof.
  intros s ord E E' HE HE' Hincl Hperm Hord. exists (filter (fun x => mem x E') ord).
  split; [|apply TriS_filter; exact Hord]. rewrite (Permutation_filter _ _ _ Hperm).
  apply NoDup_Permutation; [apply NoDup_filter; exact HE | exact HE' |].
  intros x. rewrite filter_In, mem_In. split; [tauto | auto].
Qed.

(* completeness: when a causal order exists the peeling consumes every equation *)
Lemma prefetch_complete : forall s fuel E Q, NoDup Q -> PMf s E Q -> msize E Q <= fuel ->
  (exists ord, Permutation ord E /\ TriS s ord) ->
  p_ei (prefetch inc fuel E Q) = [].
Proof.
  intros s fuel. induction fuel as [|f IH]; intros E Q HQ HPM Hfuel Hord;
    edestruct (prefetch_level s E Q HQ HPM) as (A & B & E2 & Q2 & P & Hrows & ->);
    pose proof (prefetch_progress _ _ _ _ _ _ _ HPM P Hrows Hord) as Hprog;
    destruct (msize E2 Q2 <? msize E Q) eqn:Hlt; simpl.
  2, 4: apply Nat.ltb_ge in Hlt; destruct Hprog as [->|Hp]; [reflexivity | lia].
  - apply Nat.ltb_lt in Hlt. lia.
  - apply Nat.ltb_lt in Hlt. destruct P as [HE _ _ _ _ _ HPM2 HQ2], Hord as [ord [Hperm Hord]].
    apply IH; [exact HQ2 | exact HPM2 | lia |].
    apply (TriS_restrict s ord E E2); [eapply PMf_NoDup | eapply PMf_NoDup | | |]; eauto.
    intros x Hx. rewrite HE. apply in_or_app. right. apply in_or_app. left. exact Hx.
Qed.

(* ---------------------------------------------------------------- triangularize_inner_block *)

Variable oracle : oracle_t.
Definition perm_oracle (o : oracle_t) : Prop := forall k v, Permutation (o k v) (seq 0 (length v)).
Hypothesis oracle_perm : perm_oracle oracle.

(* one reordering of triangularize_inner_block, whatever the key and the flip *)
Lemma reorder_perm : forall b k (key : nat -> nat) l,
  Permutation (permute 0 (flip_if b (oracle k (map key l))) l) l.
Proof.
  intros b k key l. apply permute_perm. rewrite <- (map_length key l).
  destruct b; simpl; [rewrite <- Permutation_rev|]; apply oracle_perm.
Qed.

Lemma triang_unfold : forall fuel cnt es qs,
  triang inc oracle fuel cnt es qs =
  match fuel with
  | 0 => (es, qs, cnt)
  | S f =>
      let pc := flip_if column_reordering_flips (oracle (2 * cnt) (map (colsum inc es) qs)) in
      let qs' := permute 0 pc qs in
      let pr := flip_if row_reordering_flips (oracle (2 * cnt + 1) (map (rowsum inc qs') es)) in
      let es' := permute 0 pr es in
      if nat_list_eqb es es' && nat_list_eqb qs qs' then (es', qs', S cnt)
      else triang inc oracle f (S cnt) es' qs'
  end.
Proof. destruct fuel; reflexivity. Qed.

Lemma triang_perm : forall fuel cnt es qs, let r := triang inc oracle fuel cnt es qs in
  Permutation (fst (fst r)) es /\ Permutation (snd (fst r)) qs.
Proof.
  induction fuel as [|f IH]; intros cnt es qs; rewrite triang_unfold.
  - split; reflexivity.
  - cbv zeta. destruct (_ && _).
    + split; apply reorder_perm.
    + split; (etransitivity; [apply IH | apply reorder_perm]).
Qed.

(* ---------------------------------------------------------------- _generate_inner_blocks *)

Lemma find_cut_spec : forall k i es qs b,
  find_cut inc k i es qs = Some b -> i <= b < i + k /\ corner_zero inc b es qs = true.
Proof.
  induction k as [|k IH]; intros i es qs b H; simpl in H; [discriminate|].
  destruct (corner_zero inc i es qs) eqn:Hc.
  - injection H as <-. split; [lia | exact Hc].
  - apply IH in H. destruct H as [H1 H2]. split; [lia | exact H2].
Qed.

Lemma find_cut_complete : forall k i es qs j,
  i <= j < i + k -> corner_zero inc j es qs = true -> find_cut inc k i es qs <> None.
Proof.
  induction k as [|k IH]; intros i es qs j Hj Hc; simpl; [lia|].
  destruct (corner_zero inc i es qs) eqn:Hci; [discriminate|].
  apply (IH (S i) es qs j); [|exact Hc].
  assert (i <> j) by (intros E; subst; congruence). lia.
Qed.

Lemma corner_zero_zero : forall b es qs, corner_zero inc b es qs = true -> zero (firstn b es) (skipn b qs).
Proof.
  intros b es qs H e q He Hq. unfold corner_zero in H. rewrite forallb_forall in H.
  specialize (H e He). rewrite forallb_forall in H. specialize (H q Hq). apply negb_true_iff in H. exact H.
Qed.

Lemma corner_zero_full : forall es qs, length qs <= length es -> corner_zero inc (length es) es qs = true.
Proof.
  intros es qs H. unfold corner_zero. rewrite (skipn_all2 qs) by exact H.
  apply forallb_forall. intros e _. reflexivity.
Qed.

Lemma gen_blocks_unfold : forall fuel es qs,
  gen_blocks inc fuel es qs =
  if msize es qs =? 0 then Some []
  else match fuel with
       | 0 => None
       | S f =>
           match find_cut inc (length es + 1 - first_block_size_candidate) first_block_size_candidate es qs with
           | None => None
           | Some bs =>
               match gen_blocks inc f (skipn bs es) (skipn bs qs) with
               | None => None
               | Some r => Some ((firstn bs es, firstn bs qs) :: r)
               end
           end
       end.
Proof. destruct fuel; reflexivity. Qed.

Lemma gen_blocks_spec : forall fuel es qs,
  length es = length qs -> length es <= fuel ->
  exists bs, gen_blocks inc fuel es qs = Some bs /\ beids bs = es /\ bqids bs = qs /\ Forall square bs /\ Tri bs.
Proof.
  induction fuel as [|f IH]; intros [|e es] [|q qs] Hlen Hfuel; try discriminate Hlen; try (simpl in Hfuel; lia).
  1, 2: exists []; repeat split; constructor.
  rewrite gen_blocks_unfold. change (msize (e :: es) (q :: qs) =? 0) with false. cbv iota.
  change first_block_size_candidate with 1.
  destruct (find_cut inc _ 1 _ _) as [b|] eqn:Hcut.
  - apply find_cut_spec in Hcut. destruct Hcut as [Hb Hc].
    destruct (IH (skipn b (e :: es)) (skipn b (q :: qs))) as [r [Hr [He [Hq [Hsq Htri]]]]].
    { rewrite !skipn_length. lia. }
    { rewrite skipn_length. lia. }
    rewrite Hr. exists ((firstn b (e :: es), firstn b (q :: qs)) :: r). split; [reflexivity|].
    split; [|split; [|split]].
    + unfold beids in *. simpl. rewrite He. apply firstn_skipn.
    + unfold bqids in *. simpl. rewrite Hq. apply firstn_skipn.
    + constructor; [|exact Hsq]. unfold square. simpl. rewrite !firstn_length. lia.
    + split; [|exact Htri]. rewrite Hq. apply corner_zero_zero. exact Hc.
  - exfalso. apply (find_cut_complete _ 1 _ _ (length (e :: es))) in Hcut; [exact Hcut | simpl; lia |].
    apply corner_zero_full. lia.
Qed.

(* ---------------------------------------------------------------- blaze (on positions) *)

(* the inner block between two runs of singleton blocks *)
Lemma Tri_sandwich : forall s a m b,
  Tri (singles a (map s a) ++ m ++ singles b (map s b)) <->
  TriS s a /\ Tri m /\ TriS s b /\ zero a (bqids m ++ map s b) /\ zero (beids m) (map s b).
Proof. intros. rewrite !Tri_app, !Tri_singles, !bqids_app, !beids_singles, !bqids_singles. tauto. Qed.

Lemma inner_perm : forall ei qi,
  let r := if msize ei qi =? 0 then (ei, qi, 0) else triang inc oracle max_iterations 0 ei qi in
  Permutation (fst (fst r)) ei /\ Permutation (snd (fst r)) qi.
Proof. intros ei qi. destruct (msize ei qi =? 0); [split; reflexivity | apply triang_perm]. Qed.

Lemma blaze_core_spec : forall s E Q,
  NoDup Q -> PMf s E Q ->
  exists bs pre calls,
    blaze_core inc oracle E Q = Some (bs, pre, calls) /\
    Permutation (beids bs) E /\ Permutation (bqids bs) Q /\ Forall square bs /\ Tri bs.
Proof.
  intros s E Q HQ HPM. unfold blaze_core.
  destruct (prefetch_spec s (msize E Q) E Q HQ HPM) as (rqf & rql & [rE rQ rtf rtl rzf rzi rpm _]).
  set (pre := prefetch inc (msize E Q) E Q) in *.
  destruct (inner_perm (p_ei pre) (p_qi pre)) as [Hpe Hpq]. destruct (if msize _ _ =? 0 then _ else _) as [[ei qi] it]. simpl in Hpe, Hpq.
  assert (Hlen : length ei = length qi) by (rewrite Hpe, Hpq; eapply PMf_length; exact rpm).
  destruct (gen_blocks_spec (length ei) ei qi Hlen (le_n _)) as [inner [-> [Hbe [Hbq [Hsq Htri]]]]].
  eexists. eexists. eexists. split; [reflexivity|]. rewrite rqf, rql.
  split; [|split; [|split]].
  - rewrite !beids_app, !beids_singles, Hbe, Hpe. symmetry. exact rE.
  - rewrite !bqids_app, !bqids_singles, Hbq, Hpq. symmetry. exact rQ.
  - apply Forall_app. split; [apply square_singles | apply Forall_app; split; [exact Hsq | apply square_singles]].
  - apply Tri_sandwich. rewrite Hbe, Hbq, Hpe, Hpq. repeat split; assumption.
Qed.

(* ---------------------------------------------------------------- consequences of triangularity *)

(* positive form: an equation of block b involves only quantities of b and of earlier blocks *)
Lemma Tri_positive : forall bs Q, Permutation (bqids bs) Q -> Tri bs ->
  forall pre b post, bs = pre ++ b :: post ->
  forall e q, In e (fst b) -> In q Q -> inc e q = true -> In q (bqids (pre ++ [b])).
Proof.
  intros bs Q HQ Htri pre b post -> e q He Hq Hinc.
  apply Tri_app in Htri. destruct Htri as [_ [[Hz _] _]].
  rewrite <- HQ in Hq. change (b :: post) with ([b] ++ post) in Hq. rewrite app_assoc, bqids_app in Hq.
  apply in_app_or in Hq. destruct Hq as [Hq|Hq]; [exact Hq|].
  rewrite (Hz e q He Hq) in Hinc. discriminate.
Qed.

(* structural non-singularity: a perfect matching of the whole matrix restricts to a perfect
   matching of every diagonal block *)
Lemma blocks_matched : forall s bs,
  NoDup (bqids bs) -> PMf s (beids bs) (bqids bs) -> Forall square bs -> Tri bs ->
  Forall (fun b => PMf s (fst b) (snd b)) bs.
Proof.
  intros s bs. induction bs as [|b r IH]; intros Hnd [Hperm Hinc] Hsq Htri; [constructor|].
  change (beids (b :: r)) with (fst b ++ beids r) in *.
  change (bqids (b :: r)) with (snd b ++ bqids r) in *.
  destruct Htri as [Hz Htri]. inversion Hsq as [|? ? Hsqb Hsqr]; subst.
  rewrite map_app in Hperm.
  (* the matched quantity of an equation of b lies in b: later blocks are zero on b's rows *)
  assert (Hsub : incl (map s (fst b)) (snd b)).
  { intros q Hq. apply in_map_iff in Hq. destruct Hq as [e [<- He]].
    assert (Hin : In (s e) (snd b ++ bqids r)) by (rewrite <- Hperm; apply in_or_app; left; apply in_map; exact He).
    apply in_app_or in Hin. destruct Hin as [Hin|Hin]; [exact Hin|].
    pose proof (Hinc e (in_or_app _ _ _ (or_introl He))) as Hi. rewrite (Hz e (s e) He Hin) in Hi. discriminate. }
  assert (Hpb : Permutation (map s (fst b)) (snd b)).
  { apply NoDup_Permutation_bis; [|rewrite map_length; unfold square in Hsqb; lia | exact Hsub].
    rewrite <- Hperm in Hnd. apply NoDup_app_l in Hnd. exact Hnd. }
  constructor.
  - split; [exact Hpb|]. intros e He. apply Hinc. apply in_or_app. left. exact He.
  - apply IH; [eapply NoDup_app_r; exact Hnd | | exact Hsqr | exact Htri]. split.
    + apply (Permutation_app_inv_l (snd b)). rewrite <- Hpb at 1. exact Hperm.
    + intros e He. apply Hinc. apply in_or_app. right. exact He.
Qed.

(* ---------------------------------------------------------------- the diagonal case (Sequential models):
   the same ids label rows and columns and every row is incident to its own column *)

Definition diag (E : list nat) : Prop := forall e, In e E -> inc e e = true.

Lemma PMf_id : forall E, diag E -> PMf (fun x => x) E E.
Proof. intros E H. split; [rewrite map_id; reflexivity | exact H]. Qed.

End CoreProofs.

(* ================================================================== matrices with id labels *)

Definition is_square (im : bmat) (n : nat) : Prop := length im = n /\ Forall (fun r => length r = n) im.

(* a perfect matching of a square boolean matrix: a permutation p with im[i][p[i]] = True for all i *)
Definition has_perfect_matching (im : bmat) : Prop :=
  exists p, Permutation p (seq 0 (length im)) /\ forall i, i < length im -> inc_pos im i (nth i p 0) = true.

(* equation e involves quantity q *)
Definition Inc (im : bmat) (eids qids : list nat) (e q : nat) : Prop :=
  exists i j, nth_error eids i = Some e /\ nth_error qids j = Some q /\ inc_pos im i j = true.

(* each block's equations involve only quantities of that block and of earlier blocks *)
Definition block_lower_triangular (im : bmat) (eids qids : list nat) (bs : list block) : Prop :=
  forall pre b post, bs = pre ++ b :: post ->
  forall e q, In e (fst b) -> Inc im eids qids e q -> In q (bqids (pre ++ [b])).

(* the block is structurally non-singular: its equations and quantities can be paired off along incidences *)
Definition block_matching (im : bmat) (eids qids : list nat) (b : block) : Prop :=
  exists ms : list (nat * nat),
    Permutation (map fst ms) (fst b) /\ Permutation (map snd ms) (snd b) /\
    Forall (fun m => Inc im eids qids (fst m) (snd m)) ms.

Lemma ncols_square : forall im n, is_square im n -> ncols im = n.
Proof.
  intros im n [Hl Hr]. unfold ncols. destruct im as [|r im]; simpl in *; [exact Hl|].
  inversion Hr; subst. assumption.
Qed.

Lemma lab_seq : forall ids, map (lab ids) (seq 0 (length ids)) = ids.
Proof. intros. unfold lab. apply map_nth_seq. Qed.

(* sorting the relabelled ids of every block permutes the relabelled concatenation *)
Lemma relabel_ids_perm : forall {A} (p : A -> list nat) (g : nat -> nat) bs,
  Permutation (concat (map (fun b => sortn (map g (p b))) bs)) (map g (concat (map p bs))).
Proof.
  intros. rewrite concat_map, map_map. apply Permutation_concat_map. intros b _. apply sortn_perm.
Qed.

Lemma beids_relabel : forall eids qids bs,
  Permutation (beids (map (relabel_block eids qids) bs)) (map (lab eids) (beids bs)).
Proof. intros. unfold beids. rewrite map_map. apply (relabel_ids_perm fst). Qed.

Lemma bqids_relabel : forall eids qids bs,
  Permutation (bqids (map (relabel_block eids qids) bs)) (map (lab qids) (bqids bs)).
Proof. intros. unfold bqids. rewrite map_map. apply (relabel_ids_perm snd). Qed.

Lemma square_relabel : forall eids qids b, square b -> square (relabel_block eids qids b).
Proof. intros eids qids b H. unfold square in *. simpl. rewrite !sortn_perm, !map_length. exact H. Qed.

Lemma Inc_lab : forall im eids qids i j, i < length eids -> j < length qids -> inc_pos im i j = true ->
  Inc im eids qids (lab eids i) (lab qids j).
Proof. intros im eids qids i j Hi Hj H. exists i, j. unfold lab. rewrite <- !nth_error_nth' by assumption. auto. Qed.

Lemma Inc_lab_inv : forall im eids qids i q, NoDup eids -> i < length eids -> Inc im eids qids (lab eids i) q ->
  exists j, j < length qids /\ q = lab qids j /\ inc_pos im i j = true.
Proof.
  intros im eids qids i q Hnd Hi [i' [j [Hi' [Hj Hinc]]]].
  assert (i' = i); [|subst i'].
  { apply (proj1 (NoDup_nth eids 0) Hnd); [apply nth_error_Some; congruence | exact Hi |].
    apply nth_error_nth. exact Hi'. }
  exists j. split; [apply nth_error_Some; congruence|]. split; [|exact Hinc].
  symmetry. apply nth_error_nth. exact Hj.
Qed.

(* triangularity and matchings on positions carry over to the id labels *)
Lemma relabel_lower_triangular : forall im eids qids bs,
  NoDup eids -> (forall i, In i (beids bs) -> i < length eids) ->
  Permutation (bqids bs) (seq 0 (length qids)) -> Tri (inc_pos im) bs ->
  block_lower_triangular im eids qids (map (relabel_block eids qids) bs).
Proof.
  intros im eids qids bs Hnd HinE HbQ Htri pre0 b0 post0 Hsplit e q He HInc.
  apply map_eq_app in Hsplit. destruct Hsplit as [pre [rest [Hbs [<- Hrest]]]].
  apply map_eq_cons in Hrest. destruct Hrest as [b [post [-> [<- _]]]].
  simpl in He. rewrite sortn_perm in He. apply in_map_iff in He. destruct He as [i [<- Hi]].
  destruct (Inc_lab_inv im eids qids i q Hnd) as [j [Hj [-> Hinc]]]; [|exact HInc|].
  { apply HinE. rewrite Hbs, beids_app. apply in_or_app. right. apply in_or_app. left. exact Hi. }
  change [relabel_block eids qids b] with (map (relabel_block eids qids) [b]).
  rewrite <- map_app, bqids_relabel. apply in_map.
  apply (Tri_positive (inc_pos im) bs _ HbQ Htri pre b post Hbs i j Hi); [apply in_seq; lia | exact Hinc].
Qed.

Lemma relabel_matching : forall im eids qids s b,
  (forall i, In i (fst b) -> i < length eids) -> (forall j, In j (snd b) -> j < length qids) ->
  PMf (inc_pos im) s (fst b) (snd b) -> block_matching im eids qids (relabel_block eids qids b).
Proof.
  intros im eids qids s b HE HQ [Hperm Hinc].
  exists (map (fun i => (lab eids i, lab qids (s i))) (fst b)). simpl. rewrite !map_map. simpl.
  split; [symmetry; apply sortn_perm|]. split.
  - rewrite sortn_perm, <- Hperm, map_map. reflexivity.
  - apply Forall_forall. intros m Hm. apply in_map_iff in Hm. destruct Hm as [i [<- Hi]].
    apply Inc_lab; [apply HE; exact Hi | apply HQ; rewrite <- Hperm; apply in_map; exact Hi | apply Hinc; exact Hi].
Qed.

(* ================================================================== Sequential models *)

Definition lhs (M : list eqn) (i : nat) : nat := fst (nth i M (0, [])).
Definition occ (M : list eqn) (i : nat) : list nat := snd (nth i M (0, [])).

(* every equation has its own LHS name ... *)
Definition distinct_lhs (M : list eqn) : Prop := NoDup (map fst M).
(* ... which occurs (at zero shift) in the equation *)
Definition lhs_occurs (M : list eqn) : Prop := forall eq, In eq M -> In (fst eq) (snd eq).

(* `ord` lists equation positions.  Every LHS variable v of the model that the equation at place p
   uses at zero shift (other than its own LHS variable) has been determined by an equation at an
   earlier place p'. *)
Definition causal_order (M : list eqn) (ord : list nat) : Prop :=
  forall p i, nth_error ord p = Some i ->
  forall v, In v (occ M i) -> v <> lhs M i -> In v (map fst M) ->
  exists p' j, p' < p /\ nth_error ord p' = Some j /\ lhs M j = v.

Definition sequential_order (M : list eqn) (ord : list nat) : Prop :=
  Permutation ord (seq 0 (length M)) /\ causal_order M ord.

Lemma TriS_nth : forall inc s l,
  TriS inc s l <->
  forall p p' a b, p < p' -> nth_error l p = Some a -> nth_error l p' = Some b -> inc a (s b) = false.
Proof.
  intros inc s l. induction l as [|x l IH]; simpl.
  - split; [intros _ [|p] p' a b _ Ha; discriminate | trivial].
  - rewrite IH. split.
    + intros [H1 H2] [|p] [|p'] a b Hlt Ha Hb; try lia; simpl in Ha, Hb.
      * injection Ha as <-. apply H1; [left; reflexivity | apply in_map; eapply nth_error_In; exact Hb].
      * apply (H2 p p'); [lia | exact Ha | exact Hb].
    + intros H. split.
      * intros e q [<-|[]] Hq. apply in_map_iff in Hq. destruct Hq as [e' [<- He']].
        apply In_nth_error in He'. destruct He' as [k Hk]. apply (H 0 (S k)); [lia | reflexivity | exact Hk].
      * intros p p' a b Hlt Ha Hb. apply (H (S p) (S p')); [lia | exact Ha | exact Hb].
Qed.

Lemma uniq_nodup : forall l seen, NoDup l -> (forall x, In x l -> ~ In x seen) -> uniq l seen = l.
Proof.
  induction l as [|x l IH]; intros seen Hnd Hdis; simpl; [reflexivity|].
  inversion Hnd; subst.
  assert (Hm : mem x seen = false) by (apply mem_false; apply Hdis; left; reflexivity).
  rewrite Hm. f_equal. apply IH; [assumption|].
  intros y Hy [Hs|Hs]; [subst; contradiction | apply (Hdis y); [right; exact Hy | exact Hs]].
Qed.

Lemma lhs_names_distinct : forall M, distinct_lhs M -> lhs_names M = map fst M.
Proof. intros M H. unfold lhs_names. apply uniq_nodup; [exact H | intros x _ []]. Qed.

Lemma seq_im_length : forall M, length (seq_im M) = length M.
Proof. intros. unfold seq_im. apply map_length. Qed.

Lemma seq_im_ncols : forall M, distinct_lhs M -> ncols (seq_im M) = length M.
Proof.
  intros M H. unfold ncols, seq_im. rewrite (lhs_names_distinct M H).
  destruct M as [|eq M]; simpl; [reflexivity|]. rewrite !map_length. reflexivity.
Qed.

Lemma seq_im_inc : forall M i j, distinct_lhs M -> i < length M -> j < length M ->
  inc_pos (seq_im M) i j = mem (lhs M j) (occ M i).
Proof.
  intros M i j H Hi Hj. unfold inc_pos, seq_im, lhs, occ. rewrite (lhs_names_distinct M H).
  rewrite (nth_map _ M i _ (0, [])) by exact Hi.
  rewrite (nth_map _ (map fst M) j _ 0), (nth_map fst M j _ (0, [])) by (rewrite ?map_length; exact Hj).
  reflexivity.
Qed.

Lemma lhs_in : forall M j, j < length M -> In (lhs M j) (map fst M).
Proof. intros. unfold lhs. apply in_map. apply nth_In. assumption. Qed.

Lemma lhs_inj : forall M i j, distinct_lhs M -> i < length M -> j < length M -> lhs M i = lhs M j -> i = j.
Proof.
  intros M i j H Hi Hj E. unfold lhs in E.
  apply (proj1 (NoDup_nth (map fst M) 0) H); rewrite ?map_length; auto.
  rewrite !(nth_map fst M _ _ (0, [])) by assumption. exact E.
Qed.

Lemma seq_im_diag : forall M, distinct_lhs M -> lhs_occurs M -> diag (inc_pos (seq_im M)) (seq 0 (length M)).
Proof.
  intros M Hd Ho i Hi. apply in_seq in Hi. rewrite seq_im_inc by (auto; lia).
  apply mem_In. unfold lhs, occ. apply Ho. apply nth_In. lia.
Qed.

Lemma nth_error_seq : forall n p i, nth_error (seq 0 n) p = Some i <-> i = p /\ p < n.
Proof.
  intros n p i. split.
  - intros H. assert (Hp : p < n) by (rewrite <- (seq_length n 0); apply nth_error_Some; congruence).
    apply nth_error_nth with (d := 0) in H. rewrite seq_nth in H by exact Hp. auto.
  - intros [-> H]. rewrite (nth_error_nth' _ 0) by (rewrite seq_length; exact H). rewrite seq_nth by exact H. reflexivity.
Qed.

(* the combinatorial statement on the incidence matrix is the statement about variables *)
Lemma causal_iff : forall M ord, distinct_lhs M -> Permutation ord (seq 0 (length M)) ->
  (TriS (inc_pos (seq_im M)) (fun x => x) ord <-> causal_order M ord).
Proof.
  intros M ord Hd Hperm. rewrite TriS_nth.
  assert (Hlt : forall p i, nth_error ord p = Some i -> i < length M).
  { intros p i H. apply nth_error_In in H. rewrite Hperm in H. apply in_seq in H. lia. }
  assert (Hnd : NoDup ord) by (rewrite Hperm; apply seq_NoDup).
  assert (Hpos : forall p p' i, nth_error ord p = Some i -> nth_error ord p' = Some i -> p = p').
  { intros p p' i H1 H2. apply (proj1 (NoDup_nth_error ord) Hnd); [apply nth_error_Some; congruence | congruence]. }
  split.
  - intros Htri p i Hp v Hv Hne Hin.
    apply in_map_iff in Hin. destruct Hin as [eq0 [Ev Heq]]. apply (In_nth (A := eqn)) with (d := (0, @nil nat)) in Heq.
    destruct Heq as [j [Hj Ej]]. assert (Hlj : lhs M j = v) by (unfold lhs, eqn in *; rewrite Ej; exact Ev).
    assert (Hjord : In j ord) by (rewrite Hperm; apply in_seq; lia).
    apply In_nth_error in Hjord. destruct Hjord as [p' Hp'].
    assert (Hi := Hlt _ _ Hp).
    assert (Hinc : inc_pos (seq_im M) i j = true).
    { rewrite seq_im_inc by auto. apply mem_In. rewrite Hlj. exact Hv. }
    exists p', j. split; [|split; [exact Hp' | exact Hlj]].
    destruct (Nat.lt_trichotomy p' p) as [H|[H|H]]; [exact H | |].
    + subst p'. assert (i = j) by congruence. subst j. congruence.
    + rewrite (Htri _ _ _ _ H Hp Hp') in Hinc. discriminate.
  - intros Hc p p' a b Hlt' Ha Hb.
    destruct (inc_pos (seq_im M) a b) eqn:Hinc; [|reflexivity]. exfalso.
    assert (Hal := Hlt _ _ Ha). assert (Hbl := Hlt _ _ Hb).
    rewrite seq_im_inc in Hinc by auto. apply mem_In in Hinc.
    assert (Hab : a <> b) by (intros E; subst b; assert (p = p') by (eapply Hpos; eauto); lia).
    destruct (Hc p a Ha (lhs M b) Hinc) as [p'' [j [Hlt'' [Hj Hlj]]]].
    + intros E. apply Hab. symmetry. apply (lhs_inj M); auto.
    + apply lhs_in. exact Hbl.
    + assert (j = b) by (apply (lhs_inj M); auto; eapply Hlt; eauto). subst j.
      assert (p'' = p') by (eapply Hpos; eauto). lia.
Qed.

(* blazer.is_sequential on the matrix of a model: no incidence above the diagonal *)
Lemma is_sequential_TriS : forall M, distinct_lhs M ->
  (is_sequential_im (seq_im M) = true <-> TriS (inc_pos (seq_im M)) (fun x => x) (seq 0 (length M))).
Proof.
  intros M Hd. unfold is_sequential_im. rewrite seq_im_length, (seq_im_ncols M Hd), TriS_nth.
  change is_sequential_order with 1. rewrite forallb_forall. split.
  - intros H p p' a b Hlt Ha Hb. apply nth_error_seq in Ha, Hb. destruct Ha as [-> Hp], Hb as [-> Hp'].
    specialize (H p). rewrite in_seq, forallb_forall in H. specialize (H ltac:(lia) p').
    rewrite in_seq in H. apply negb_true_iff, H. lia.
  - intros H i Hi. apply in_seq in Hi. apply forallb_forall. intros j Hj. apply in_seq in Hj.
    apply negb_true_iff. apply (H i j); [lia | apply nth_error_seq; lia | apply nth_error_seq; lia].
Qed.

Lemma permute_id : forall {A} (d : A) l, permute d (seq 0 (length l)) l = l.
Proof. intros. unfold permute. apply map_nth_seq. Qed.

(* --- the statements about Sequential.sequentialize, for either value of `raises` *)

Lemma sequentialize_sound : forall raises M ord M',
  distinct_lhs M -> lhs_occurs M ->
  sequentialize_gen raises M = (SeqOk ord, M') ->
  sequential_order M ord /\ M' = permute (0, []) ord M.
Proof.
  intros raises M ord M' Hd Ho H. unfold sequentialize_gen in H.
  destruct (model_is_sequential M) eqn:Hseq.
  - injection H as <- <-. split; [|symmetry; apply permute_id].
    split; [reflexivity|]. apply causal_iff; [exact Hd | reflexivity|].
    unfold model_is_sequential in Hseq. destruct M as [|eq M]; [exact I|].
    apply is_sequential_TriS; assumption.
  - unfold sequentialize_strictly in H. rewrite seq_im_length, (seq_im_ncols M Hd) in H.
    set (E := seq 0 (length M)) in *. set (inc := inc_pos (seq_im M)) in *.
    set (r := prefetch inc (msize E E) E E) in *.
    match type of H with (if ?c && raises then _ else _) = _ => destruct (c && raises) end; [discriminate|].
    destruct (nat_list_eqb (sortn (p_ef r ++ p_el r)) E) eqn:Hs; simpl in H; [|discriminate].
    injection H as <- <-. split; [|reflexivity].
    apply nat_list_eqb_eq, sortn_is_range in Hs.
    split; [exact Hs|]. apply causal_iff; [exact Hd | exact Hs|].
    apply (PreSpec_singles_causal inc _ E E). apply prefetch_spec; [apply seq_NoDup|].
    apply PMf_id. apply seq_im_diag; assumption.
Qed.

Lemma sequentialize_failure_untouched : forall raises M code M',
  sequentialize_gen raises M = (SeqErr code, M') -> M' = M.
Proof.
  intros raises M code M' H. unfold sequentialize_gen in H.
  destruct (model_is_sequential M); [discriminate|].
  destruct (sequentialize_strictly (seq_im M)) as [ord fail].
  destruct (fail && raises); [injection H as _ <-; reflexivity|].
  destruct (negb (nat_list_eqb (sortn ord) (seq 0 (length M)))); [injection H as _ <-; reflexivity | discriminate].
Qed.

Lemma sequentialize_complete : forall raises M,
  distinct_lhs M -> lhs_occurs M ->
  (exists ord, sequential_order M ord) ->
  exists ord', fst (sequentialize_gen raises M) = SeqOk ord'.
Proof.
  intros raises M Hd Ho [ord [Hperm Hc]]. unfold sequentialize_gen.
  destruct (model_is_sequential M); [eexists; reflexivity|].
  unfold sequentialize_strictly. rewrite seq_im_length, (seq_im_ncols M Hd).
  set (E := seq 0 (length M)). set (inc := inc_pos (seq_im M)).
  set (r := prefetch inc (msize E E) E E).
  assert (HE : NoDup E) by apply seq_NoDup.
  assert (HPM : PMf inc (fun x => x) E E) by (apply PMf_id, seq_im_diag; assumption).
  destruct (prefetch_spec inc _ (msize E E) E E HE HPM) as (rqf & rql & [rE _ _ _ _ _ rpm _]). fold r in rE, rqf, rql, rpm.
  assert (Hei : p_ei r = []).
  { apply (prefetch_complete inc (fun x => x)); [exact HE | exact HPM | apply le_n |].
    exists ord. split; [exact Hperm | apply causal_iff; assumption]. }
  assert (Hqi : p_qi r = []).
  { apply PMf_length in rpm. rewrite Hei in rpm. destruct (p_qi r); [reflexivity | discriminate]. }
  rewrite map_id in rqf, rql. rewrite Hei in rE. simpl in rE.
  assert (Hrefl : forall l, nat_list_eqb l l = true) by (intros l; apply nat_list_eqb_eq; reflexivity).
  rewrite Hei, Hqi, rqf, rql, (proj2 (sortn_is_range _ _) (Permutation_sym rE)), !Hrefl.
  simpl. eexists. reflexivity.
Qed.

(* sequentialize raises exactly when no sequential order exists *)
Lemma sequentialize_raises_iff : forall raises M, distinct_lhs M -> lhs_occurs M ->
  ((exists code, fst (sequentialize_gen raises M) = SeqErr code) <-> ~ exists ord, sequential_order M ord).
Proof.
  intros raises M Hd Ho. split.
  - intros [code Hc] Hex. destruct (sequentialize_complete raises M Hd Ho Hex) as [ord' H]. congruence.
  - intros Hn. destruct (sequentialize_gen raises M) as [[ord|code] M'] eqn:Hs.
    + exfalso. apply Hn. exists ord. eapply sequentialize_sound; eassumption.
    + exists code. reflexivity.
Qed.

(* ================================================================== instances and non-vacuity *)

Definition id_oracle : oracle_t := fun _ v => seq 0 (length v).
Lemma id_oracle_perm : perm_oracle id_oracle.
Proof. intros k v. apply Permutation_refl. Qed.

(* a reversing ("non-sorting") oracle also satisfies the contract *)
Definition rev_oracle : oracle_t := fun _ v => rev (seq 0 (length v)).
Lemma rev_oracle_perm : perm_oracle rev_oracle.
Proof. intros k v. apply Permutation_sym. apply Permutation_rev. Qed.

(* a 6x6 matrix with a perfect matching off the diagonal; the implementation returns one 1x1 first
   block, two 2x2 inner blocks and one 1x1 last block for it *)
Definition ex_im : bmat :=
  [ [true;  true;  false; false; false; false];
    [false; true;  true;  true;  false; false];
    [false; false; false; false; true;  false];
    [true;  true;  false; false; false; false];
    [false; true;  false; false; false; true ];
    [false; false; true;  true;  false; false] ].
Definition ex_eids := [10; 11; 12; 13; 14; 15].
Definition ex_qids := [26; 25; 24; 23; 22; 21].

(* a sorting oracle: stable argsort (positions ordered by key, ties by position) *)
Fixpoint ins_idx (v : list nat) (i : nat) (l : list nat) : list nat :=
  match l with
  | [] => [i]
  | j :: r => if nth i v 0 <=? nth j v 0 then i :: l else j :: ins_idx v i r
  end.
Definition stable_argsort (v : list nat) : list nat := fold_right (ins_idx v) [] (seq 0 (length v)).
Definition sorting_oracle : oracle_t := fun _ v => stable_argsort v.

Lemma ins_idx_perm : forall v i l, Permutation (ins_idx v i l) (i :: l).
Proof.
  intros v i l. induction l as [|j l IH]; simpl; [reflexivity|].
  destruct (nth i v 0 <=? nth j v 0); [reflexivity|]. rewrite IH. apply perm_swap.
Qed.

Lemma sorting_oracle_perm : perm_oracle sorting_oracle.
Proof.
  intros k v. unfold sorting_oracle, stable_argsort. induction (seq 0 (length v)) as [|i l IH]; simpl; [constructor|].
  rewrite ins_idx_perm, IH. reflexivity.
Qed.

(* Sequential examples: a = b + c[-1]; b = 0.5*d + 1; c = a + b; d = 0.8*d[-1]  (names 0..3) *)
Definition ex_model : list eqn := [(0, [0; 1]); (1, [1; 3]); (2, [2; 0; 1]); (3, [3])].
(* a = b; b = c; c = a *)
Definition ex_cycle : list eqn := [(0, [0; 1]); (1, [1; 2]); (2, [2; 0])].
