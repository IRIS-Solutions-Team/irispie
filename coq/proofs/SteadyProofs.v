(* C05: proofs about the model of the steady-state solver plumbing (model/Steady.v), over Coq's reals. *)
From Coq Require Import ZArith List Bool Lia Reals Lra.
From Verif Require Import lib.Arith gen.SteadyGen model.Steady.
Import ListNotations.

Notation RA := RArith.
Notation Rln := Rpower.ln.
Notation Rexp := Rtrigo_def.exp.
(* over the reals nothing is NaN or infinite *)
Definition nobad : R -> bool := fun _ => false.

Lemma nth_map_d {T U} (f : T -> U) l i d d' : (i < length l)%nat -> nth i (map f l) d = f (nth i l d').
Proof. revert i; induction l as [|x l IH]; intros [|i] H; simpl in *; try lia; auto. apply IH; lia. Qed.

Lemma nth_map_seq {T} (f : nat -> T) n i d : (i < n)%nat -> nth i (map f (seq 0 n)) d = f i.
Proof. intros H. rewrite nth_map_d with (d' := O), seq_nth; auto. now rewrite seq_length. Qed.

Lemma nth_map2 {T U W} (f : T -> U -> W) a b i da db dw :
  (i < length a)%nat -> (i < length b)%nat -> nth i (map2 f a b) dw = f (nth i a da) (nth i b db).
Proof.
  revert b i; induction a as [|x a IH]; intros [|y b] [|i] Ha Hb; simpl in *; try lia; auto. apply IH; lia.
Qed.

Lemma length_map2 {T U W} (f : T -> U -> W) a b : length (map2 f a b) = Nat.min (length a) (length b).
Proof. revert b; induction a as [|x a IH]; intros [|y b]; simpl; auto. Qed.

Lemma filter_all {T} (f : T -> bool) l : (forall x, In x l -> f x = true) -> filter f l = l.
Proof.
  induction l as [|h t IH]; simpl; intros H; auto. rewrite (H h) by auto. f_equal. apply IH. auto.
Qed.

Lemma split_combine_map {T U} (a : list T) (b : list U) :
  length a = length b -> map fst (combine a b) = a /\ map snd (combine a b) = b.
Proof.
  revert b; induction a as [|x a IH]; intros [|y b] H; simpl in *; try lia; auto.
  destruct (IH b) as [E1 E2]; [lia|]. now rewrite E1, E2.
Qed.

Lemma nth_zrange_n first n j : (j < n)%nat -> nth j (zrange_n first n) 0%Z = (first + Z.of_nat j)%Z.
Proof. intros H. unfold zrange_n. now rewrite nth_map_seq. Qed.

Lemma length_zrange_n first n : length (zrange_n first n) = n.
Proof. unfold zrange_n. now rewrite map_length, seq_length. Qed.

Lemma count_true_le (m : list bool) : (count_true m <= length m)%nat.
Proof. unfold count_true. induction m as [|b m IH]; simpl; [lia|]. destruct b; simpl; lia. Qed.

Section Lists.
Context {T : Type}.
Implicit Types l init g : list T.

Lemma nth_set_nth_eq l n x d : (n < length l)%nat -> nth n (set_nth l n x) d = x.
Proof. revert n; induction l as [|h t IH]; intros [|n] H; simpl in *; try lia; auto. apply IH; lia. Qed.

Lemma nth_set_nth_neq l n m x d : n <> m -> nth m (set_nth l n x) d = nth m l d.
Proof. revert n m; induction l as [|h t IH]; intros [|n] [|m] H; simpl; auto; try congruence. Qed.

Lemma length_set_nth l n x : length (set_nth l n x) = length l.
Proof. revert n; induction l as [|h t IH]; intros [|n]; simpl; auto. Qed.

Lemma mask_select_assign init mask g :
  length init = length mask -> length g = count_true mask -> mask_select (mask_assign init mask g) mask = g.
Proof.
  unfold count_true. revert mask g; induction init as [|x i IH]; intros [|b m] g Hl Hg; simpl in *; try lia.
  - destruct g; simpl in *; [reflexivity|lia].
  - destruct b; simpl in *.
    + destruct g as [|y g]; simpl in *; [lia|]. f_equal. apply IH; lia.
    + apply IH; lia.
Qed.

Lemma length_mask_assign init mask g : length (mask_assign init mask g) = length init.
Proof.
  revert mask g; induction init as [|x i IH]; intros [|b m] g; simpl; auto.
  destruct b; [destruct g|]; simpl; f_equal; apply IH.
Qed.

Lemma length_mask_select l mask : length l = length mask -> length (mask_select l mask) = count_true mask.
Proof.
  unfold count_true. revert mask; induction l as [|x t IH]; intros [|b m] H; simpl in *; try lia.
  destruct b; simpl; rewrite IH; auto.
Qed.

(* rank of position i among the True entries *)
Fixpoint rank (mask : list bool) (i : nat) : nat :=
  match mask, i with
  | _, O => O
  | [], _ => O
  | b :: m, S i' => (if b then 1 else 0) + rank m i'
  end.

(* entry i after x[mask] = g: the guess entry of that rank where the mask is set, the old value elsewhere
   (also beyond the end of a short mask) *)
Lemma nth_mask_assign init mask g i d : (i < length init)%nat -> length g = count_true mask ->
  nth i (mask_assign init mask g) d = if nth i mask false then nth (rank mask i) g d else nth i init d.
Proof.
  unfold count_true. revert mask g i; induction init as [|x it IH]; intros [|b m] g i Hi Hg; simpl in *; try lia.
  - destruct i; reflexivity.
  - destruct b; simpl in *; [destruct g as [|y g]; simpl in *; [lia|]|]; destruct i as [|i]; simpl; auto; apply IH; lia.
Qed.

Lemma nth_mask_select l mask i d :
  length l = length mask -> (i < length mask)%nat -> nth i mask false = true ->
  nth (rank mask i) (mask_select l mask) d = nth i l d.
Proof.
  revert mask i; induction l as [|x t IH]; intros [|b m] i Hl Hi H; simpl in *; try lia.
  destruct i as [|i]; simpl in *.
  - subst b. reflexivity.
  - destruct b; simpl; apply IH; auto; lia.
Qed.

Lemma rank_lt mask i : (i < length mask)%nat -> nth i mask false = true -> (rank mask i < count_true mask)%nat.
Proof.
  unfold count_true. revert i; induction mask as [|b m IH]; intros i Hi H; simpl in *; [lia|].
  destruct i as [|i]; simpl in *.
  - subst b; simpl; lia.
  - specialize (IH i ltac:(lia) H). destruct b; simpl; lia.
Qed.

Lemma In_mask_select l mask x : In x (mask_select l mask) ->
  exists i, (i < length mask)%nat /\ (i < length l)%nat /\ nth i mask false = true /\ forall d, nth i l d = x.
Proof.
  revert mask; induction l as [|y t IH]; intros [|b m] H; simpl in *; try contradiction.
  destruct b; simpl in H.
  - destruct H as [->|H].
    + exists O; simpl; repeat split; auto; lia.
    + destruct (IH _ H) as (i & ? & ? & ? & ?). exists (S i); simpl; repeat split; auto; lia.
  - destruct (IH _ H) as (i & ? & ? & ? & ?). exists (S i); simpl; repeat split; auto; lia.
Qed.

Lemma mask_select_In (l : list T) mask i d : length l = length mask -> (i < length mask)%nat ->
  nth i mask false = true -> In (nth i l d) (mask_select l mask).
Proof.
  intros Hl Hi H. rewrite <- (nth_mask_select l mask i d) by assumption.
  apply nth_In. rewrite length_mask_select by assumption. now apply rank_lt.
Qed.

Lemma NoDup_mask_select l mask : NoDup l -> NoDup (mask_select l mask).
Proof.
  revert mask; induction l as [|x t IH]; intros [|b m] ND; simpl; try constructor.
  inversion ND as [|? ? Hn ND']; subst. destruct b; [constructor|]; auto.
  intros H. apply Hn. apply In_mask_select in H. destruct H as (i & _ & Hi & _ & Hx).
  rewrite <- (Hx x). apply nth_In. exact Hi.
Qed.

End Lists.

Lemma mem_nat_In q l : mem_nat q l = true <-> In q l.
Proof.
  unfold mem_nat. rewrite existsb_exists. split.
  - intros (x & Hx & E). apply Nat.eqb_eq in E. now subst.
  - intros H. exists q. split; auto. apply Nat.eqb_refl.
Qed.

Lemma index_of_None q l : index_of q l = None <-> ~ In q l.
Proof.
  induction l as [|h t IH]; simpl; [tauto|].
  destruct (Nat.eqb_spec q h) as [->|N]; [intuition discriminate|].
  destruct (index_of q t); simpl; intuition (congruence || discriminate).
Qed.

Lemma index_of_Some q l i : index_of q l = Some i -> (i < length l)%nat /\ nth i l O = q.
Proof.
  revert i; induction l as [|h t IH]; simpl; intros i H; [discriminate|].
  destruct (Nat.eqb_spec q h) as [->|N].
  - inversion H; subst. split; simpl; auto; lia.
  - destruct (index_of q t) as [j|]; simpl in H; [|discriminate]. inversion H; subst.
    destruct (IH j eq_refl). split; simpl; auto; lia.
Qed.

Lemma index_of_nth l i : NoDup l -> (i < length l)%nat -> index_of (nth i l O) l = Some i.
Proof.
  revert i; induction l as [|h t IH]; intros i ND Hi; simpl in *; [lia|].
  inversion ND as [|? ? Hnin ND']; subst.
  destruct i as [|i]; simpl.
  - now rewrite Nat.eqb_refl.
  - destruct (Nat.eqb_spec (nth i t O) h) as [E|N].
    + exfalso. apply Hnin. rewrite <- E. apply nth_In; lia.
    + rewrite IH; auto; lia.
Qed.

Section Update.
Open Scope R_scope.

Lemma none_if_nan_R (x : R) : none_if_nan RA x = x.
Proof. reflexivity. Qed.

Lemma update_from_array_length d vals qids : length (update_from_array RA d vals qids) = length d.
Proof.
  unfold update_from_array. revert d vals; induction qids as [|q qs IH]; intros d [|x vs]; simpl; auto.
  rewrite IH. apply length_set_nth.
Qed.

Lemma update_from_array_other d vals qids q :
  ~ In q qids -> vget RA (update_from_array RA d vals qids) q = vget RA d q.
Proof.
  unfold update_from_array, vget. revert d vals; induction qids as [|h qs IH]; intros d [|x vs] H; simpl in *; auto.
  rewrite IH by tauto. apply nth_set_nth_neq. intros E; apply H; auto.
Qed.

Lemma update_from_array_hit d vals qids i :
  NoDup qids -> length vals = length qids -> (i < length qids)%nat -> (nth i qids O < length d)%nat ->
  vget RA (update_from_array RA d vals qids) (nth i qids O) = nth i vals 0.
Proof.
  unfold update_from_array. revert d vals i; induction qids as [|h qs IH]; intros d [|x vs] i ND Hl Hi Hd; simpl in *; try lia.
  inversion ND as [|? ? Hnin ND']; subst.
  destruct i as [|i]; simpl in *.
  - change (fold_left _ (combine qs vs) (set_nth d h (none_if_nan RA x))) with
        (update_from_array RA (set_nth d h (none_if_nan RA x)) vs qs).
    rewrite update_from_array_other by exact Hnin. unfold vget. now rewrite nth_set_nth_eq.
  - apply IH; auto; try lia. now rewrite length_set_nth.
Qed.

(* d[qids[mask]] = vals[mask], as extract_levels / extract_changes followed by _update_from_array do it *)
Lemma update_masked_other d vals qids mask q :
  (forall i, (i < length qids)%nat -> nth i mask false = true -> nth i qids O <> q) ->
  vget RA (update_from_array RA d (mask_select vals mask) (mask_select qids mask)) q = vget RA d q.
Proof.
  intros H. apply update_from_array_other. intros Hin.
  apply In_mask_select in Hin. destruct Hin as (i & _ & Hi & Hb & Hq). exact (H i Hi Hb (Hq O)).
Qed.

Lemma update_masked_hit d vals qids mask i :
  NoDup qids -> length vals = length qids -> length mask = length qids -> (i < length qids)%nat ->
  nth i mask false = true -> (nth i qids O < length d)%nat ->
  vget RA (update_from_array RA d (mask_select vals mask) (mask_select qids mask)) (nth i qids O) = nth i vals 0.
Proof.
  intros ND Hv Hm Hi Hb Hd.
  rewrite <- (nth_mask_select qids mask i O), <- (nth_mask_select vals mask i 0) by (assumption || lia).
  apply update_from_array_hit.
  - now apply NoDup_mask_select.
  - rewrite !length_mask_select; auto; lia.
  - rewrite length_mask_select by auto. apply rank_lt; auto; lia.
  - rewrite nth_mask_select by (assumption || lia). exact Hd.
Qed.

End Update.

Section Equations.
Open Scope R_scope.
Notation expr := (expr RA).

(* an equation only reads the cells named by its tokens *)
Lemma eval_ext (x y : nat -> Z -> R) (e : expr) :
  (forall q s, In (q, s) (tokens RA e) -> x q s = y q s) -> eval RA x e = eval RA y e.
Proof.
  induction e; simpl; intros H; auto;
    try (rewrite IHe by auto; reflexivity);
    try (rewrite IHe1, IHe2 by (intros; apply H; apply in_or_app; auto); reflexivity).
Qed.

Lemma fold_min_max_bounds (l : list Z) (s : Z) : forall a b,
  (In s l \/ a <= s <= b)%Z -> (fold_left Z.min l a <= s <= fold_left Z.max l b)%Z.
Proof.
  induction l as [|h t IH]; intros a b; simpl; [intros [[]|H]; exact H|].
  intros [[->|H]|H]; apply IH; auto; right; lia.
Qed.

Lemma shift_bounds (eqs : list expr) s :
  In s (map snd (all_tokens RA eqs)) -> (min_shift_of RA eqs <= s <= max_shift_of RA eqs)%Z.
Proof.
  unfold min_shift_of, max_shift_of. destruct (map snd (all_tokens RA eqs)) as [|a r]; [contradiction|].
  intros [->|H]; apply fold_min_max_bounds; auto; right; lia.
Qed.

Lemma token_shift_bounds (eqs : list expr) e q s :
  In e eqs -> In (q, s) (tokens RA e) -> (min_shift_of RA eqs <= s <= max_shift_of RA eqs)%Z.
Proof.
  intros He Ht. apply shift_bounds, in_map_iff. exists (q, s). split; auto. apply in_flat_map. eauto.
Qed.

Lemma min_le_max (eqs : list expr) : (min_shift_of RA eqs <= max_shift_of RA eqs)%Z.
Proof.
  destruct (map snd (all_tokens RA eqs)) as [|a r] eqn:E.
  - unfold min_shift_of, max_shift_of. rewrite E. lia.
  - pose proof (shift_bounds eqs a) as H. rewrite E in H. specialize (H (or_introl eq_refl)). lia.
Qed.

End Equations.

Section PathShape.
Open Scope R_scope.

(* the steady path that stored level l and change c define for a quantity: date s is relative to "now" *)
Definition path_value (lgq : bool) (l c : R) (s : Z) : R :=
  if lgq then l * Rpower c (IZR s) else l + c * IZR s.

Lemma exp_ln_pos x : 0 < x -> Rexp (Rln x) = x.
Proof. apply exp_ln. Qed.

Definition delog (lgi : bool) (x : R) : R := if lgi then Rexp x else x.
Definition relog (lgi : bool) (x : R) : R := if lgi then Rln x else x.

Lemma relog_delog lgi x : relog lgi (delog lgi x) = x.
Proof. destruct lgi; simpl; auto. apply ln_exp. Qed.

(* a cell of the steady array is computed in maybe-log form and delogarithmized *)
Lemma variant_cell_maybelog lgq l c s :
  variant_cell RA nobad lgq l c s = delog lgq (relog lgq l + relog lgq c * IZR s).
Proof. destruct lgq; reflexivity. Qed.

Lemma variant_cell_shape lgq l c s : (lgq = true -> 0 < l) -> variant_cell RA nobad lgq l c s = path_value lgq l c s.
Proof.
  rewrite variant_cell_maybelog. destruct lgq; intros H; [|reflexivity]. simpl.
  rewrite exp_plus, exp_ln by auto. unfold Rpower. now rewrite (Rmult_comm (Rln c)).
Qed.

Lemma aget_nat (arr : array RA) q j : aget RA arr q (Z.of_nat j) = nth j (nth q arr []) 0.
Proof. unfold aget. destruct (Z.ltb_spec (Z.of_nat j) 0); [lia|]. now rewrite Nat2Z.id. Qed.

Lemma steady_array_cell lg v ncols first q j :
  (q < length (v_levels RA v))%nat -> (j < ncols)%nat -> (2 <= ncols)%nat ->
  aget RA (create_steady_array RA nobad lg v ncols first) q (Z.of_nat j) =
  variant_cell RA nobad (is_log lg q) (vget RA (v_levels RA v) q) (vget RA (v_changes RA v) q) (first + Z.of_nat j).
Proof.
  intros Hq Hj Hn. rewrite aget_nat. unfold create_steady_array, steady_array_general.
  destruct (Nat.eqb_spec ncols 1); [lia|]. simpl andb. cbv iota. rewrite nth_map_seq by exact Hq.
  rewrite nth_map_d with (d' := 0%Z) by (now rewrite length_zrange_n). now rewrite nth_zrange_n.
Qed.

(* THEOREM path_shape: the row of quantity q is the arithmetic sequence level + change*k (any variable that is
   not a log-variable) or the geometric sequence level * change^k (log-variables), for EVERY column; hence it is
   constant when the change is 0 (resp. 1) *)
Theorem path_shape lg v ncols first q j :
  (q < length (v_levels RA v))%nat -> (j < ncols)%nat -> (2 <= ncols)%nat ->
  (is_log lg q = true -> 0 < vget RA (v_levels RA v) q) ->
  aget RA (create_steady_array RA nobad lg v ncols first) q (Z.of_nat j) =
  path_value (is_log lg q) (vget RA (v_levels RA v) q) (vget RA (v_changes RA v) q) (first + Z.of_nat j).
Proof. intros Hq Hj Hn Hpos. rewrite steady_array_cell by assumption. now apply variant_cell_shape. Qed.

Lemma path_value_step lgq l c s : (lgq = true -> 0 < c) ->
  path_value lgq l c (s + 1) = if lgq then path_value lgq l c s * c else path_value lgq l c s + c.
Proof.
  intros Hc. unfold path_value. rewrite plus_IZR. destruct lgq; [|ring].
  rewrite Rpower_plus, Rpower_1 by auto. ring.
Qed.

End PathShape.

Lemma mask_assign_nil {T} (init g : list T) : mask_assign init [] g = init.
Proof. destruct init; reflexivity. Qed.

Lemma mask_select_nil {T} (l : list T) : mask_select l [] = [].
Proof. destruct l; reflexivity. Qed.

Lemma length_mask_select_eq {T U} (a : list T) (b : list U) mask :
  length a = length b -> length (mask_select a mask) = length (mask_select b mask).
Proof.
  revert b mask; induction a as [|x a IH]; intros [|y b] [|[|] m] H; simpl in *; try lia; auto.
Qed.

(* Variant.zero_changes: the change 1 of a log-variable and the change 0 of any other variable are both 0 in
   maybe-log form (and so is a missing one: ln 0 is 0 in Coq's reals) *)
Lemma relog_zero_change lg n q :
  relog (is_log lg q) (vget RA (map (fun q => gen_zero_change RA (nth q lg None)) (seq 0 n)) q) = 0%R.
Proof.
  unfold vget. destruct (Nat.lt_ge_cases q n) as [Hq|Hq].
  - rewrite nth_map_seq by exact Hq. unfold is_log. destruct (nth q lg None) as [[|]|]; cbn; auto. apply ln_1.
  - rewrite nth_overflow by (now rewrite map_length, seq_length).
    destruct (is_log lg q); cbn; auto. unfold Rln. destruct (Rlt_dec 0 0); [exfalso; lra|reflexivity].
Qed.

(* writing the delogarithmized vector xs back at the masked entries of wrt and reading entry i again in maybe-log
   form returns xs[i], provided xs already holds the old value where the mask is not set *)
Lemma masked_write_roundtrip lg wrt (d : list (car RA)) mask (xs : list R) i :
  NoDup wrt -> (i < length wrt)%nat -> (nth i wrt O < length d)%nat -> length xs = length wrt ->
  (if nth i mask false then length mask = length wrt
   else nth i xs 0%R = relog (is_log lg (nth i wrt O)) (vget RA d (nth i wrt O))) ->
  relog (is_log lg (nth i wrt O))
    (vget RA (update_from_array RA d (mask_select (map2 delog (map (is_log lg) wrt) xs) mask) (mask_select wrt mask))
       (nth i wrt O)) = nth i xs 0%R.
Proof.
  intros ND Hi Hd Hx H. destruct (nth i mask false) eqn:Hb.
  - rewrite update_masked_hit; auto.
    + rewrite nth_map2 with (da := false) (db := 0%R), (nth_map_d _ _ _ _ O) by (rewrite ?map_length; lia). apply relog_delog.
    + rewrite length_map2, map_length, Hx. apply Nat.min_id.
  - rewrite update_masked_other; auto.
    intros j Hj Hbj E. apply NoDup_nth in E; auto. congruence.
Qed.

Section Evaluator.
Open Scope R_scope.

Variables (flat : bool) (lg : list (option bool)) (kinds : list qkind) (v : variant RA).
Variables (wrt level_qids change_qids : list nat) (eqs : list (expr RA)) (g : list R).

Definition nq := length (v_levels RA v).
Hypothesis Hlen_changes : length (v_changes RA v) = nq.
Hypothesis Hnodup : NoDup wrt.
Hypothesis Hwrt_lt : forall q, In q wrt -> (q < nq)%nat.

Definition the_ev := snd (make_evaluator RA nobad flat lg v wrt level_qids change_qids eqs).
Definition the_v1 := fst (make_evaluator RA nobad flat lg v wrt level_qids change_qids eqs).
Notation ev := the_ev.
Notation v1 := the_v1.

Hypothesis Hg : length g = (count_true (ev_bl RA ev) + count_true (ev_bc RA ev))%nat.
(* only loggable variables carry a steady change: the solved change cells are variables
   (endogenized parameters are put among the fixed changes by _resolve_steady_wrt) *)
Hypothesis Hloggable : forall q, In q wrt -> In q change_qids -> is_loggable (kind_of kinds q) = true.

Definition the_v' := write_back RA kinds v1 ev g.
Notation v' := the_v'.

Definition bl := map (fun q => mem_nat q level_qids) wrt.
Definition bc := if flat then [] else map (fun q => mem_nat q change_qids) wrt.
Definition nl := count_true bl.

(* the evaluator that make_evaluator builds, field by field (over R nothing is missing, so _fill_missing is the
   identity); each field equation also holds by conversion, which is what the [change ... with ...] steps use *)
Lemma the_ev_fields :
  ev = mkEv RA flat wrt bl bc (map (is_log lg) wrt) (min_shift_of RA eqs)
         (Z.to_nat (max_shift_of RA eqs + 1 + 1 - min_shift_of RA eqs))
         (map (maybelog_level RA lg v1) wrt) (map (maybelog_change RA lg v1) wrt)
         (create_steady_array RA nobad lg v1 (Z.to_nat (max_shift_of RA eqs + 1 + 1 - min_shift_of RA eqs)) (min_shift_of RA eqs))
         eqs.
Proof. reflexivity. Qed.
Lemma ev_init_levels_eq : ev_init_levels RA ev = map (maybelog_level RA lg v1) wrt.
Proof. now rewrite the_ev_fields. Qed.
Lemma v1_eq : v1 = if flat then zero_changes RA lg v else v.
Proof. reflexivity. Qed.
Lemma v1_levels : v_levels RA v1 = v_levels RA v.
Proof. rewrite v1_eq. destruct flat; reflexivity. Qed.
Lemma v1_changes_length : length (v_changes RA v1) = nq.
Proof.
  rewrite v1_eq. destruct flat; simpl; auto. now rewrite map_length, seq_length.
Qed.

Lemma length_bl : length bl = length wrt.  Proof. unfold bl. now rewrite map_length. Qed.
Lemma length_bc : flat = false -> length bc = length wrt.
Proof. unfold bc. intros ->. now rewrite map_length. Qed.

Lemma nth_bl i : (i < length wrt)%nat -> nth i bl false = true <-> In (nth i wrt O) level_qids.
Proof. intros Hi. unfold bl. now rewrite nth_map_d with (d' := O), mem_nat_In. Qed.
Lemma nth_bc i : (i < length wrt)%nat -> nth i bc false = true <-> flat = false /\ In (nth i wrt O) change_qids.
Proof.
  intros Hi. unfold bc. destruct flat.
  - destruct i; simpl; intuition discriminate.
  - rewrite nth_map_d with (d' := O), mem_nat_In by exact Hi. tauto.
Qed.

(* the part of the guess that holds levels / changes *)
Definition gl := if flat then g else firstn nl g.
Definition gc := skipn nl g.

Lemma length_gl_gc : length gl = nl /\ length gc = count_true bc.
Proof.
  pose proof Hg as H. change (length g = (nl + count_true bc)%nat) in H. unfold gl, gc. rewrite skipn_length.
  unfold bc in H |- *. clear - H. destruct flat; [change (count_true []) with O in H |- *; lia|]. rewrite firstn_length. lia.
Qed.

Lemma new_levels_eq : new_levels RA ev g = mask_assign (map (maybelog_level RA lg v1) wrt) bl gl.
Proof. unfold new_levels, gl. change (ev_flat RA ev) with flat. destruct flat; reflexivity. Qed.

(* in flat mode the changes are reset, which is what zero_changes has stored already *)
Lemma new_changes_eq : new_changes RA ev g = mask_assign (map (maybelog_change RA lg v1) wrt) bc gc.
Proof.
  change (new_changes RA ev g) with (if flat then map (fun _ => 0) (map (maybelog_change RA lg v1) wrt)
                                    else mask_assign (map (maybelog_change RA lg v1) wrt) bc gc).
  unfold bc. destruct flat eqn:F; [|reflexivity].
  rewrite mask_assign_nil, map_map, v1_eq, F. apply map_ext. intros q. symmetry. apply relog_zero_change.
Qed.

Lemma length_new_levels : length (new_levels RA ev g : list R) = length wrt.
Proof. now rewrite new_levels_eq, length_mask_assign, map_length. Qed.
Lemma length_new_changes : length (new_changes RA ev g : list R) = length wrt.
Proof. now rewrite new_changes_eq, length_mask_assign, map_length. Qed.

(* the maybe-log level / change the evaluator uses for the i-th entry of wrt: the guess where it is solved for,
   what the variant holds elsewhere *)
Definition new_level (i : nat) : R := nth i (new_levels RA ev g) 0.
Definition new_change (i : nat) : R := nth i (new_changes RA ev g) 0.

Lemma new_level_eq i : (i < length wrt)%nat ->
  new_level i = if nth i bl false then nth (rank bl i) gl 0 else maybelog_level RA lg v1 (nth i wrt O).
Proof.
  intros Hi. unfold new_level. rewrite new_levels_eq, nth_mask_assign, (nth_map_d _ _ _ _ O); rewrite ?map_length; auto.
  apply length_gl_gc.
Qed.
Lemma new_change_eq i : (i < length wrt)%nat ->
  new_change i = if nth i bc false then nth (rank bc i) gc 0 else maybelog_change RA lg v1 (nth i wrt O).
Proof.
  intros Hi. unfold new_change. rewrite new_changes_eq, nth_mask_assign, (nth_map_d _ _ _ _ O); rewrite ?map_length; auto.
  apply length_gl_gc.
Qed.
Lemma new_change_flat i : flat = true -> (i < length wrt)%nat -> new_change i = 0.
Proof.
  intros F Hi. rewrite new_change_eq by exact Hi. unfold bc. rewrite v1_eq, F. destruct i; apply relog_zero_change.
Qed.

(* guess_roundtrip, index level: what is read back from the updated vectors at the solved positions is the guess *)
Theorem guess_roundtrip_index :
  mask_select (new_levels RA ev g) (ev_bl RA ev) = gl /\
  (flat = false -> mask_select (new_changes RA ev g) (ev_bc RA ev) = gc /\ g = gl ++ gc).
Proof.
  destruct length_gl_gc as [Hl Hc]. split; [|intros F; split].
  - rewrite new_levels_eq. apply mask_select_assign; auto. rewrite map_length. symmetry. apply length_bl.
  - rewrite new_changes_eq. apply mask_select_assign; auto. rewrite map_length. symmetry. now apply length_bc.
  - unfold gl, gc. rewrite F. symmetry. apply firstn_skipn.
Qed.

Definition written_levels := map2 delog (map (is_log lg) wrt) (new_levels RA ev g).
Definition written_changes := map2 delog (map (is_log lg) wrt) (new_changes RA ev g).

Lemma v'_levels : v_levels RA v' = update_from_array RA (v_levels RA v) (mask_select written_levels bl) (mask_select wrt bl).
Proof. unfold the_v', write_back. cbn [extract_levels extract_changes]. cbn [v_levels]. rewrite v1_levels. reflexivity. Qed.

(* every solved change cell is a loggable variable, so write_back keeps all of them *)
Lemma v'_changes : v_changes RA v' = update_from_array RA (v_changes RA v1) (mask_select written_changes bc) (mask_select wrt bc).
Proof.
  transitivity (let k := combine (mask_select written_changes bc) (mask_select wrt bc) in
                update_from_array RA (v_changes RA v1) (map fst k) (map snd k)).
  - unfold the_v', write_back. cbn [extract_levels extract_changes]. cbn [v_changes]. rewrite filter_all; [reflexivity|].
    intros [c q] H. apply in_combine_r, In_mask_select in H. destruct H as (i & _ & Hi & Hb & Hq).
    rewrite <- (Hq O). apply nth_bc in Hb; auto. apply Hloggable; [now apply nth_In|tauto].
  - cbv zeta. destruct (split_combine_map (mask_select written_changes bc) (mask_select wrt bc)) as [-> ->]; auto.
    apply length_mask_select_eq. unfold written_changes. rewrite length_map2, map_length, length_new_changes. apply Nat.min_id.
Qed.

(* guess_roundtrip, cell level: cells that are not solved for are untouched *)
Theorem levels_untouched q : ~ (In q wrt /\ In q level_qids) -> vget RA (v_levels RA v') q = vget RA (v_levels RA v) q.
Proof.
  intros H. rewrite v'_levels. apply update_masked_other. intros i Hi Hb <-.
  apply H. split; [now apply nth_In|now apply nth_bl].
Qed.

Theorem changes_untouched q : ~ (flat = false /\ In q wrt /\ In q change_qids) ->
  vget RA (v_changes RA v') q = vget RA (v_changes RA v1) q.
Proof.
  intros H. rewrite v'_changes. apply update_masked_other. intros i Hi Hb <-.
  apply nth_bc in Hb; auto. apply H. repeat split; try tauto. now apply nth_In.
Qed.

Lemma maybelog_level_R lg0 (w : variant RA) q :
  maybelog_level RA lg0 w q = relog (is_log lg0 q) (vget RA (v_levels RA w) q).
Proof. reflexivity. Qed.
Lemma maybelog_change_R lg0 (w : variant RA) q :
  maybelog_change RA lg0 w q = relog (is_log lg0 q) (vget RA (v_changes RA w) q).
Proof. reflexivity. Qed.

(* reading the written variant back in maybe-log form returns what the evaluator used, for EVERY entry of wrt *)
Theorem maybelog_level_roundtrip i : (i < length wrt)%nat -> maybelog_level RA lg v' (nth i wrt O) = new_level i.
Proof.
  intros Hi. rewrite maybelog_level_R, v'_levels. apply masked_write_roundtrip; auto using length_new_levels.
  - apply Hwrt_lt. now apply nth_In.
  - change (nth i _ 0) with (new_level i). rewrite new_level_eq by exact Hi.
    destruct (nth i bl false); [apply length_bl|now rewrite maybelog_level_R, v1_levels].
Qed.

Theorem maybelog_change_roundtrip i : (i < length wrt)%nat -> maybelog_change RA lg v' (nth i wrt O) = new_change i.
Proof.
  intros Hi. rewrite maybelog_change_R, v'_changes. apply masked_write_roundtrip; auto using length_new_changes.
  - rewrite v1_changes_length. apply Hwrt_lt. now apply nth_In.
  - change (nth i _ 0) with (new_change i). rewrite new_change_eq by exact Hi. destruct (nth i bc false) eqn:Hb; [|reflexivity].
    apply length_bc. now apply nth_bc in Hb.
Qed.

(* guess_roundtrip, stated on the guess vector itself: a solved level (change) cell, read back from the written
   variant in maybe-log form, is the corresponding entry of the guess *)
Theorem guess_roundtrip_cells i : (i < length wrt)%nat ->
  (In (nth i wrt O) level_qids -> maybelog_level RA lg v' (nth i wrt O) = nth (rank bl i) gl 0) /\
  (flat = false -> In (nth i wrt O) change_qids -> maybelog_change RA lg v' (nth i wrt O) = nth (rank bc i) gc 0).
Proof.
  intros Hi. split.
  - intros Hin. apply nth_bl in Hin; auto. now rewrite maybelog_level_roundtrip, new_level_eq, Hin.
  - intros F Hin. assert (Hb : nth i bc false = true) by (apply nth_bc; auto).
    now rewrite maybelog_change_roundtrip, new_change_eq, Hb.
Qed.

(* the array the residual is evaluated on is the steady array of the written variant *)
Definition ncols := ev_ncols RA ev.
Definition mn := min_shift_of RA eqs.
Definition off := gen_column_offset mn.

Lemma ncols_Z : Z.of_nat ncols = (max_shift_of RA eqs + 2 - mn)%Z.
Proof.
  change ncols with (Z.to_nat (max_shift_of RA eqs + 1 + 1 - mn)). pose proof (min_le_max eqs). unfold mn. lia.
Qed.
Lemma ncols_ge_2 : (2 <= ncols)%nat.
Proof. pose proof ncols_Z. pose proof (min_le_max eqs). unfold mn in *. lia. Qed.

Lemma ev_cell_R (fl lgi : bool) l c s : ev_cell RA fl lgi l c s = delog lgi (if fl then l else l + IZR s * c).
Proof. destruct fl, lgi; reflexivity. Qed.

Lemma length_create lg0 (w : variant RA) n f : length (create_steady_array RA nobad lg0 w n f) = length (v_levels RA w).
Proof.
  unfold create_steady_array, steady_array_general. destruct (_ && _); now rewrite map_length, seq_length.
Qed.

Lemma length_base : length (ev_base RA ev) = nq.
Proof. change (ev_base RA ev) with (create_steady_array RA nobad lg v1 ncols mn). now rewrite length_create, v1_levels. Qed.

Lemma v'_levels_length : length (v_levels RA v') = nq.
Proof. rewrite v'_levels, update_from_array_length. reflexivity. Qed.

Lemma ev_array_row_wrt i j : (i < length wrt)%nat -> (j < ncols)%nat ->
  aget RA (ev_array RA ev g) (nth i wrt O) (Z.of_nat j) =
  ev_cell RA flat (is_log lg (nth i wrt O)) (new_level i) (new_change i) (mn + Z.of_nat j).
Proof.
  intros Hi Hj. rewrite aget_nat. unfold ev_array. rewrite length_base.
  rewrite nth_map_seq by (apply Hwrt_lt; now apply nth_In).
  change (ev_wrt RA ev) with wrt. rewrite index_of_nth by assumption.
  unfold ev_shifts. rewrite nth_map_d with (d' := 0%Z), nth_zrange_n by (rewrite ?length_zrange_n; exact Hj).
  change (ev_lg RA ev) with (map (is_log lg) wrt). now rewrite nth_map_d with (d' := O).
Qed.

Lemma ev_array_row_other q : (q < nq)%nat -> ~ In q wrt -> nth q (ev_array RA ev g) [] = nth q (ev_base RA ev) [].
Proof.
  intros Hq Hn. unfold ev_array. rewrite length_base, nth_map_seq by exact Hq.
  apply index_of_None in Hn. change (ev_wrt RA ev) with wrt. now rewrite Hn.
Qed.

Definition stored_array := create_steady_array RA nobad lg v' ncols mn.

Theorem stored_array_is_evaluated_array q j : (q < nq)%nat -> (j < ncols)%nat ->
  aget RA (ev_array RA ev g) q (Z.of_nat j) = aget RA stored_array q (Z.of_nat j).
Proof.
  intros Hq Hj. unfold stored_array.
  rewrite steady_array_cell, variant_cell_maybelog by (rewrite ?v'_levels_length; auto using ncols_ge_2).
  destruct (in_dec Nat.eq_dec q wrt) as [Hin|Hnin].
  - destruct (In_nth _ _ O Hin) as (i & Hi & <-).
    rewrite ev_array_row_wrt, ev_cell_R, <- maybelog_level_R, <- maybelog_change_R by assumption.
    rewrite maybelog_level_roundtrip, maybelog_change_roundtrip by exact Hi.
    f_equal. destruct flat eqn:F; [rewrite new_change_flat by assumption|]; ring.
  - rewrite aget_nat, ev_array_row_other, <- aget_nat by assumption.
    change (ev_base RA ev) with (create_steady_array RA nobad lg v1 ncols mn).
    rewrite steady_array_cell, variant_cell_maybelog by (rewrite ?v1_levels; auto using ncols_ge_2).
    now rewrite levels_untouched, changes_untouched, v1_levels by tauto.
Qed.

(* all equations of the block mention existing quantities *)
Hypothesis Htok : forall e q s, In e eqs -> In (q, s) (tokens RA e) -> (q < nq)%nat.

(* the columns read at date t and at date t+k exist *)
Lemma column_in_range e q s t : In e eqs -> In (q, s) (tokens RA e) -> (off <= t <= off + 1)%Z ->
  (0 <= t + s < Z.of_nat ncols)%Z.
Proof.
  intros He Hqs Ht. pose proof (token_shift_bounds eqs e q s He Hqs). pose proof ncols_Z.
  unfold off, gen_column_offset, mn in *. lia.
Qed.

Lemma eval_eqs_same t : (t = off \/ t = gen_time_k_column off) ->
  eval_eqs RA (ev_array RA ev g) t eqs = eval_eqs RA stored_array t eqs.
Proof.
  intros Ht. unfold eval_eqs. apply map_ext_in. intros e He. apply eval_ext. intros q s Hqs.
  assert (Hcol : (0 <= t + s < Z.of_nat ncols)%Z)
    by (apply (column_in_range e q); auto; unfold gen_time_k_column, gen_nonflat_steady_shift in Ht; lia).
  unfold env_at. rewrite <- (Z2Nat.id (t + s)) by lia.
  apply stored_array_is_evaluated_array; [eapply Htok; eauto|lia].
Qed.

(* THEOREM residual_is_equations: the vector handed to the solver at guess g is exactly the block's steady
   equations evaluated on the steady array of the variant AFTER write-back, at column t (flat) / at columns t and
   t+k (non-flat) *)
Theorem residual_is_equations :
  ev_func RA ev g = eval_eqs RA stored_array off eqs ++
                    (if flat then [] else eval_eqs RA stored_array (gen_time_k_column off) eqs).
Proof.
  rewrite <- !eval_eqs_same by auto. unfold ev_func. change (ev_flat RA ev) with flat.
  destruct flat; [now rewrite app_nil_r|reflexivity].
Qed.

(* the closed-form steady path of the written variant *)
Definition stored_path (q : nat) (s : Z) : R :=
  variant_cell RA nobad (is_log lg q) (vget RA (v_levels RA v') q) (vget RA (v_changes RA v') q) s.

Definition at_date (P : nat -> Z -> R) (t : Z) : nat -> Z -> R := fun q s => P q (t + s)%Z.

Lemma eval_on_stored_array e (d : Z) : In e eqs -> (d = 0 \/ d = 1)%Z ->
  eval RA (env_at RA stored_array (off + d)) e = eval RA (at_date stored_path d) e.
Proof.
  intros He Hd. apply eval_ext. intros q s Hqs.
  assert (Hcol : (0 <= off + d + s < Z.of_nat ncols)%Z) by (apply (column_in_range e q); auto; lia).
  unfold env_at, at_date, stored_array. rewrite <- (Z2Nat.id (off + d + s)) by lia.
  rewrite steady_array_cell; [|rewrite v'_levels_length; eapply Htok; eauto|lia|apply ncols_ge_2].
  unfold stored_path. f_equal. rewrite Z2Nat.id by lia. unfold off, gen_column_offset. lia.
Qed.

(* ... the same, on the closed-form path: residuals at date 0 (flat) / dates 0 and 1 (non-flat) *)
Theorem residual_on_stored_path :
  ev_func RA ev g = map (eval RA (at_date stored_path 0)) eqs ++
                    (if flat then [] else map (eval RA (at_date stored_path 1)) eqs).
Proof.
  rewrite residual_is_equations. unfold eval_eqs. f_equal.
  - apply map_ext_in. intros e He. rewrite <- (eval_on_stored_array e 0) by auto. now rewrite Z.add_0_r.
  - destruct flat; auto. apply map_ext_in. intros e He. rewrite <- (eval_on_stored_array e 1) by auto.
    reflexivity.
Qed.

(* success of the solver: max-norm of the residual vector below the tolerance => every equation of the block is
   within the tolerance on the stored path at the evaluated dates *)
Theorem success_means_equations_hold tol :
  Forall (fun r => Rabs r < tol) (ev_func RA ev g) ->
  forall e, In e eqs ->
    Rabs (eval RA (at_date stored_path 0) e) < tol /\
    (flat = false -> Rabs (eval RA (at_date stored_path 1) e) < tol).
Proof.
  rewrite residual_on_stored_path. intros H e He. rewrite Forall_app in H. destruct H as [H0 H1]. split.
  - rewrite Forall_forall in H0. apply H0. now apply in_map.
  - intros F. rewrite F in H1. rewrite Forall_forall in H1. apply H1. now apply in_map.
Qed.

End Evaluator.

(* [ring] and [lra] want the carrier written R, not [car RA], also in the type of the atoms [eval RA x e] *)
Ltac cR := change (car RA) with R in *.
Ltac toR := cR;
  repeat match goal with
         | |- context [eval RA ?x ?e] => let r := fresh "r" in let E := fresh "E" in remember (eval RA x e : R) as r eqn:E in *; clear E
         | _ : context [eval RA ?x ?e] |- _ => let r := fresh "r" in let E := fresh "E" in remember (eval RA x e : R) as r eqn:E in *; clear E
         end.

Section EveryDate.
Open Scope R_scope.
Notation expr := (expr RA).
Variable P : nat -> Z -> R.                 (* a steady path: value of quantity q at date t *)

Definition flat_q (q : nat) : Prop := forall t, P q t = P q 0%Z.
Definition arith_q (q : nat) : Prop := exists l c, forall t, P q t = l + c * IZR t.
Definition geom_q (q : nat) : Prop := exists l c, 0 < l /\ 0 < c /\ forall t, P q t = l * Rpower c (IZR t).

Theorem every_date_flat (e : expr) :
  (forall q s, In (q, s) (tokens RA e) -> flat_q q) ->
  forall t, eval RA (at_date P t) e = eval RA (at_date P 0) e.
Proof.
  intros H t. apply eval_ext. intros q s Hqs. unfold at_date. rewrite (H q s Hqs). symmetry. apply (H q s Hqs).
Qed.

(* residuals affine in time *)
Definition time_const (e : expr) : Prop := forall q s, In (q, s) (tokens RA e) -> flat_q q.
Definition affine_fun (f : Z -> R) : Prop := exists a b, forall t, f t = a + b * IZR t.

Inductive affine_expr : expr -> Prop :=
| af_const e : time_const e -> affine_expr e
| af_var q s : arith_q q -> affine_expr (EVar q s)
| af_lnvar q s : geom_q q -> affine_expr (ELn (EVar q s))
| af_neg a : affine_expr a -> affine_expr (ENeg a)
| af_add a b : affine_expr a -> affine_expr b -> affine_expr (EAdd a b)
| af_sub a b : affine_expr a -> affine_expr b -> affine_expr (ESub a b)
| af_mul_l a b : time_const a -> affine_expr b -> affine_expr (EMul a b)
| af_mul_r a b : affine_expr a -> time_const b -> affine_expr (EMul a b)
| af_div a b : affine_expr a -> time_const b -> affine_expr (EDiv a b).

Lemma affine_expr_affine e : affine_expr e -> affine_fun (fun t => eval RA (at_date P t) e).
Proof.
  induction 1 as [e H|q s (l & c & H)|q s (l & c & Hl & Hc & H)|a _ (x & y & IH)
                 |a b _ (x & y & IHa) _ (x' & y' & IHb)|a b _ (x & y & IHa) _ (x' & y' & IHb)
                 |a b Ha _ (x & y & IHb)|a b _ (x & y & IHa) Hb|a b _ (x & y & IHa) Hb].
  - exists (eval RA (at_date P 0) e), 0. intros t. rewrite (every_date_flat e H). toR; ring.
  - exists (l + c * IZR s), c. intros t. cbn. unfold at_date. rewrite H, plus_IZR. toR; ring.
  - exists (Rln l + IZR s * Rln c), (Rln c). intros t. cbn. unfold at_date. rewrite H.
    rewrite ln_mult by (try apply exp_pos; assumption). unfold Rpower. rewrite ln_exp, plus_IZR. toR; ring.
  - exists (- x), (- y). intros t. cbn. rewrite IH. toR; ring.
  - exists (x + x'), (y + y'). intros t. cbn. rewrite IHa, IHb. toR; ring.
  - exists (x - x'), (y - y'). intros t. cbn. rewrite IHa, IHb. toR; ring.
  - exists (eval RA (at_date P 0) a * x), (eval RA (at_date P 0) a * y). intros t. cbn.
    rewrite IHb, (every_date_flat a Ha). toR; ring.
  - exists (x * eval RA (at_date P 0) b), (y * eval RA (at_date P 0) b). intros t. cbn.
    rewrite IHa, (every_date_flat b Hb). toR; ring.
  - exists (x / eval RA (at_date P 0) b), (y / eval RA (at_date P 0) b). intros t. cbn.
    rewrite IHa, (every_date_flat b Hb). unfold Rdiv. toR; ring.
Qed.

(* an affine function of time is determined by its values at two dates *)
Lemma affine_two_dates f : affine_fun f ->
  (f 0%Z = 0 -> f 1%Z = 0 -> forall t, f t = 0) /\
  (forall tol, Rabs (f 0%Z) <= tol -> Rabs (f 1%Z) <= tol -> forall t, Rabs (f t) <= (1 + 2 * Rabs (IZR t)) * tol).
Proof.
  intros (a & b & H). rewrite !H. replace (a + b * 0) with a by ring. replace (a + b * 1) with (a + b) by ring.
  split; [intros H0 H1 t|intros tol H0 H1 t]; rewrite H.
  - assert (b = 0) by lra. subst. ring.
  - assert (Hb : Rabs b <= 2 * tol).
    { replace b with ((a + b) - a) by ring. eapply Rle_trans; [apply Rabs_triang|]. rewrite Rabs_Ropp. lra. }
    eapply Rle_trans; [apply Rabs_triang|]. rewrite Rabs_mult.
    pose proof (Rabs_pos (IZR t)). pose proof (Rabs_pos b).
    assert (Rabs b * Rabs (IZR t) <= 2 * tol * Rabs (IZR t)) by (apply Rmult_le_compat_r; lra). lra.
Qed.

(* log-affine: both sides are monomials in positive constants, flat positive quantities and log-variables *)
Definition geom_fun (f : Z -> R) : Prop := exists a b, forall t, f t = Rexp (a + b * IZR t).

Inductive mono_expr : expr -> Prop :=
| mo_const (c : R) : 0 < c -> mono_expr (@EConst RA c)
| mo_flat q s : flat_q q -> 0 < P q 0%Z -> mono_expr (EVar q s)
| mo_var q s : geom_q q -> mono_expr (EVar q s)
| mo_mul a b : mono_expr a -> mono_expr b -> mono_expr (EMul a b)
| mo_div a b : mono_expr a -> mono_expr b -> mono_expr (EDiv a b)
| mo_pow a b : mono_expr a -> time_const b -> mono_expr (EPow a b)
| mo_exp a : affine_expr a -> mono_expr (EExp a).

Lemma mono_expr_geom e : mono_expr e -> geom_fun (fun t => eval RA (at_date P t) e).
Proof.
  induction 1 as [c Hc|q s Hf Hp|q s (l & c & Hl & Hc & H)|a b _ (x & y & IHa) _ (x' & y' & IHb)
                 |a b _ (x & y & IHa) _ (x' & y' & IHb)|a b _ (x & y & IHa) Hb|a Ha].
  - exists (Rln c), 0. intros t. cbn. rewrite Rmult_0_l, Rplus_0_r. now rewrite exp_ln.
  - exists (Rln (P q 0%Z)), 0. intros t. cbn. unfold at_date. rewrite Hf, Rmult_0_l, Rplus_0_r. now rewrite exp_ln.
  - exists (Rln l + IZR s * Rln c), (Rln c). intros t. cbn. unfold at_date. rewrite H. unfold Rpower.
    rewrite <- (exp_ln l) at 1 by exact Hl. rewrite <- exp_plus. f_equal. rewrite plus_IZR. toR; ring.
  - exists (x + x'), (y + y'). intros t. cbn. rewrite IHa, IHb, <- exp_plus. f_equal. toR; ring.
  - exists (x - x'), (y - y'). intros t. cbn. rewrite IHa, IHb. unfold Rdiv. rewrite <- exp_Ropp, <- exp_plus. f_equal. toR; ring.
  - exists (eval RA (at_date P 0) b * x), (eval RA (at_date P 0) b * y). intros t. cbn.
    rewrite IHa, (every_date_flat b Hb). unfold Rpower. rewrite ln_exp. f_equal. toR; ring.
  - destruct (affine_expr_affine a Ha) as (x & y & H). exists x, y. intros t. cbn. now rewrite H.
Qed.

Lemma geom_two_dates f h : geom_fun f -> geom_fun h -> f 0%Z = h 0%Z -> f 1%Z = h 1%Z -> forall t, f t = h t.
Proof.
  intros (a & b & Hf) (a' & b' & Hh) H0 H1 t. rewrite Hf, Hh in *. simpl in H0, H1.
  apply exp_inv in H0. apply exp_inv in H1. assert (a = a') by lra. assert (b = b') by lra. subst. reflexivity.
Qed.

End EveryDate.

Section Blockwise.
Variables (state eqn : Type).
Variable holds : state -> eqn -> Prop.              (* equation e holds in state s *)
Variable same_on : state -> state -> nat -> Prop.   (* s and s' agree on quantity q *)
Variable qids_of : eqn -> list nat.                 (* the quantities an equation mentions *)
Variable inv : state -> Prop.                       (* an invariant of the loop (e.g. "changes are flat") *)
Hypothesis holds_ext : forall s s' e, (forall q, In q (qids_of e) -> same_on s s' q) -> holds s e -> holds s' e.

(* one block: its equations, the quantities it solves for, and what solving it does to the state (the solver's
   final guess is part of [bstep]) *)
Record blk := mkBlk { beqs : list eqn; bqids : list nat; bstep : state -> state }.

(* solving block b in state s only writes the block's own quantities, and afterwards the block's equations hold
   (this is what a successful solver run gives: mb_step_spec) *)
Definition good_at (b : blk) (s : state) : Prop :=
  inv (bstep b s) /\
  (forall q, ~ In q (bqids b) -> same_on s (bstep b s) q) /\
  (forall e, In e (beqs b) -> holds (bstep b s) e).

(* ... for every block, in the state in which it is actually run *)
Fixpoint all_good (bs : list blk) (s : state) : Prop :=
  match bs with
  | [] => True
  | b :: r => good_at b s /\ all_good r (bstep b s)
  end.

(* block-triangular order: no equation mentions a quantity that a LATER block solves for *)
Fixpoint triangular (bs : list blk) : Prop :=
  match bs with
  | [] => True
  | b :: r => (forall e, In e (beqs b) -> forall b', In b' r -> forall q, In q (bqids b') -> ~ In q (qids_of e))
              /\ triangular r
  end.

Definition run_blocks (bs : list blk) (s : state) : state := fold_left (fun s b => bstep b s) bs s.

Lemma later_blocks_preserve bs s e :
  all_good bs s ->
  (forall b', In b' bs -> forall q, In q (bqids b') -> ~ In q (qids_of e)) ->
  holds s e -> holds (run_blocks bs s) e.
Proof.
  revert s; induction bs as [|b r IH]; intros s G Hd H; simpl; auto.
  destruct G as ((Hi & Hloc & _) & G).
  apply IH; auto.
  - intros; eapply Hd; simpl; eauto.
  - apply holds_ext with s; auto. intros q Hq. apply Hloc. intros Hin. exact (Hd b (or_introl eq_refl) q Hin Hq).
Qed.

(* THEOREM blockwise_equals_joint: after solving the blocks one after another in a block-triangular order, writing
   the result back after each block, ALL equations of ALL blocks hold in the final state *)
Theorem blockwise_equals_joint bs s0 :
  all_good bs s0 -> triangular bs ->
  forall b e, In b bs -> In e (beqs b) -> holds (run_blocks bs s0) e.
Proof.
  revert s0; induction bs as [|b0 r IH]; intros s0 G T b e Hb He; simpl in *; [contradiction|].
  destruct T as [T0 T]. destruct G as ((Hi & _ & Hsolve) & G).
  destruct Hb as [<-|Hb].
  - apply later_blocks_preserve; auto.
    intros b' Hb' q Hq. exact (T0 e He b' Hb' q Hq).
  - apply IH with b; auto.
Qed.

End Blockwise.

Lemma map2_app {T U W} (f : T -> U -> W) a1 a2 b1 b2 :
  length a1 = length b1 -> map2 f (a1 ++ a2) (b1 ++ b2) = map2 f a1 b1 ++ map2 f a2 b2.
Proof. revert b1; induction a1 as [|x a IH]; intros [|y b] H; simpl in *; try lia; auto. f_equal. apply IH. lia. Qed.

Section Linear.
Open Scope R_scope.

Fixpoint rdot (r x : list R) : R :=
  match r, x with
  | a :: r', b :: x' => a * b + rdot r' x'
  | _, _ => 0
  end.

Lemma dot_acc r x acc :
  fold_left (fun (a : R) (ab : R * R) => a + fst ab * snd ab) (combine r x) acc = acc + rdot r x.
Proof.
  revert x acc; induction r as [|a r IH]; intros [|b x] acc; simpl; try ring.
  rewrite IH. ring.
Qed.

Lemma dot_rdot r x : dot RA r x = rdot r x.
Proof. unfold dot. cbn [add mul ofZ RA car]. rewrite dot_acc. simpl. ring. Qed.

Lemma rdot_app r1 r2 x1 x2 : length r1 = length x1 -> rdot (r1 ++ r2) (x1 ++ x2) = rdot r1 x1 + rdot r2 x2.
Proof.
  revert x1; induction r1 as [|a r IH]; intros [|b x] H; simpl in *; try lia; try ring.
  rewrite IH by lia. ring.
Qed.

Lemma rdot_map2_lin (f : R -> R -> R) ca cb ra rb x :
  (forall a b, f a b = ca * a + cb * b) -> length ra = length rb ->
  rdot (map2 f ra rb) x = ca * rdot ra x + cb * rdot rb x.
Proof.
  intros Hf. revert rb x; induction ra as [|a ra IH]; intros [|b rb] [|y x] H; simpl in *; try lia; try ring.
  rewrite IH, Hf by lia. ring.
Qed.

Lemma rdot_map_lin (f : R -> R) c r x : (forall a, f a = c * a) -> rdot (map f r) x = c * rdot r x.
Proof.
  intros Hf. revert x; induction r as [|a r IH]; intros [|y x]; simpl; try ring. rewrite IH, Hf. ring.
Qed.

(* a row [f1(A,B) | f2(A,B)] (resp. [f1(F) | f2(F)]) of a stacked matrix, f1 and f2 linear, against [x; dx] *)
Lemma rdot_row2 (f1 f2 : R -> R -> R) a1 b1 a2 b2 ra rb x dx :
  (forall a b, f1 a b = a1 * a + b1 * b) -> (forall a b, f2 a b = a2 * a + b2 * b) ->
  length ra = length x -> length rb = length x ->
  rdot (map2 f1 ra rb ++ map2 f2 ra rb) (x ++ dx) = a1 * rdot ra x + b1 * rdot rb x + (a2 * rdot ra dx + b2 * rdot rb dx).
Proof.
  intros H1 H2 Ha Hb. rewrite rdot_app by (rewrite length_map2; lia).
  now rewrite (rdot_map2_lin f1 a1 b1), (rdot_map2_lin f2 a2 b2) by (auto; lia).
Qed.

Lemma rdot_row1 (f1 f2 : R -> R) c1 c2 r x dx :
  (forall a, f1 a = c1 * a) -> (forall a, f2 a = c2 * a) -> length r = length x ->
  rdot (map f1 r ++ map f2 r) (x ++ dx) = c1 * rdot r x + c2 * rdot r dx.
Proof.
  intros H1 H2 Hr. rewrite rdot_app by (now rewrite map_length). now rewrite (rdot_map_lin f1 c1), (rdot_map_lin f2 c2).
Qed.

Definition vaxpy (x d : list R) (t : R) : list R := map2 (fun a b => a + t * b) x d.

Lemma rdot_vaxpy r x d t : length x = length d -> rdot r (vaxpy x d t) = rdot r x + t * rdot r d.
Proof.
  unfold vaxpy. revert x d; induction r as [|a r IH]; intros [|y x] [|e d] H; simpl in *; try lia; try ring.
  rewrite IH by lia. ring.
Qed.

(* the generated entries of the stacked systems are linear combinations: [lin] proves  gen_lin_.. RA a b = ca * a + cb * b *)
#[local] Hint Unfold gen_lin_AB11 gen_lin_AB12 gen_lin_AB21 gen_lin_AB22 gen_lin_FF11 gen_lin_FF12 gen_lin_FF21 gen_lin_FF22
  gen_lin_GG11 gen_lin_GG12 gen_lin_GG21 gen_lin_GG22 gen_lin_flat_lhs gen_lin_flat_rhs gen_lin_k : lingen.
Ltac lin := intros; autounfold with lingen; cbn; cR; ring.
Ltac lia' := cR; lia.

(* the second block row is the system one period later *)
Lemma lin_k_is_shift : gen_lin_k = gen_nonflat_steady_shift.  Proof. reflexivity. Qed.

Definition zeros (l : list R) : Prop := Forall (fun r => r = 0) l.

(* row i of an exactly solved system  M x = c *)
Lemma solved_row (M : list (list R)) (x c : list R) i : zeros (vsub RA (matvec RA M x) c) -> length c = length M -> (i < length M)%nat ->
  rdot (nth i M []) x = nth i c 0.
Proof.
  intros Hz Hc Hi. unfold zeros, vsub, matvec in Hz. rewrite Forall_nth in Hz. specialize (Hz i 0).
  rewrite length_map2, map_length in Hz. specialize (Hz ltac:(lia')).
  rewrite nth_map2 with (da := 0) (db := 0), nth_map_d with (d' := []), dot_rdot in Hz by (rewrite ?map_length; lia').
  cbn in Hz. lra.
Qed.

(* ... and of  (-M) x = c *)
Lemma solved_neg_row (M : list (list R)) (x c : list R) i :
  zeros (vsub RA (matvec RA (negm RA M) x) c) -> length c = length M -> (i < length M)%nat -> - rdot (nth i M []) x = nth i c 0.
Proof.
  intros Hz Hc Hi. apply solved_row with (i := i) in Hz; unfold negm in *; rewrite ?map_length; auto.
  rewrite nth_map_d with (d' := []), rdot_map_lin with (c := -1) in Hz by (auto; intros; cbn; cR; ring). cR; lra.
Qed.

(* a stacked system is solved exactly when both halves are *)
Lemma solved_stacked (M1 M2 : list (list R)) (x c1 c2 : list R) :
  length c1 = length M1 -> zeros (vsub RA (matvec RA (negm RA (M1 ++ M2)) x) (c1 ++ c2)) ->
  zeros (vsub RA (matvec RA (negm RA M1) x) c1) /\ zeros (vsub RA (matvec RA (negm RA M2) x) c2).
Proof.
  intros Hl Hz. unfold negm, matvec, vsub in *. rewrite !map_app, map2_app in Hz by (rewrite !map_length; lia').
  now apply Forall_app.
Qed.

Section Transition.
Variables (Am Bm : list (list R)) (Cv xi dxi : list R).
Let n := length Am.
Let m := length xi.
Hypothesis HB : length Bm = n.
Hypothesis HC : length Cv = n.
Hypothesis Hd : length dxi = m.
Hypothesis HrowsA : forall i, (i < n)%nat -> length (nth i Am []) = m.
Hypothesis HrowsB : forall i, (i < n)%nat -> length (nth i Bm []) = m.

(* THEOREM (linear, growth): if lstsq returned an exact solution of the stacked system then the transition
   equations  A xi_t + B xi_{t-1} + C = 0  hold on the path xi_t = Xi + t dXi at EVERY date t *)
Theorem linear_nonflat_transition :
  zeros (vsub RA (matvec RA (negm RA (lin_AB RA Am Bm)) (xi ++ dxi)) (Cv ++ Cv)) ->
  forall (t : Z) i, (i < n)%nat ->
    rdot (nth i Am []) (vaxpy xi dxi (IZR t)) + rdot (nth i Bm []) (vaxpy xi dxi (IZR t - 1)) + nth i Cv 0 = 0.
Proof.
  intros Hz t i Hi. apply solved_stacked in Hz; [|rewrite length_map2; lia']. destruct Hz as [Z0 Z1].
  apply solved_neg_row with (i := i) in Z0, Z1; rewrite ?length_map2; try lia'.
  rewrite nth_map2 with (da := []) (db := []) in Z0, Z1 by lia'.
  rewrite (rdot_row2 _ _ 1 1 0 (-1)) in Z0 by (auto; lin). rewrite (rdot_row2 _ _ 1 1 1 0) in Z1 by (auto; lin).
  rewrite !rdot_vaxpy by (fold m; lia'). cR.
  set (p := rdot (nth i Am []) xi) in *. set (q := rdot (nth i Bm []) xi) in *.
  set (r := rdot (nth i Am []) dxi) in *. set (u := rdot (nth i Bm []) dxi) in *.
  set (c := nth i Cv 0) in *.
  assert (Hc : c = - (p + q) + u) by lra. assert (Hr : r = - u) by lra. rewrite Hc, Hr. ring.
Qed.

(* flat: (A + B) Xi = -C  means  A Xi + B Xi + C = 0 *)
Theorem linear_flat_transition :
  zeros (vsub RA (matvec RA (map2 (map2 (gen_lin_flat_lhs RA)) Am Bm) xi) (map (gen_lin_flat_rhs RA) Cv)) ->
  forall i, (i < n)%nat -> rdot (nth i Am []) xi + rdot (nth i Bm []) xi + nth i Cv 0 = 0.
Proof.
  intros Hz i Hi. apply solved_row with (i := i) in Hz; rewrite ?map_length, ?length_map2; try lia'.
  rewrite nth_map2 with (da := []) (db := []), nth_map_d with (d' := 0) in Hz by lia'.
  rewrite (rdot_map2_lin _ (-1) (-1)) in Hz by (try lin; rewrite HrowsA, HrowsB; auto). unfold gen_lin_flat_rhs in Hz. cR; lra.
Qed.

End Transition.

Section Measurement.
Variables (Fm Gm : list (list R)) (Hv xi dxi y dy : list R).
Let n := length Fm.
Hypothesis HG : length Gm = n.
Hypothesis HH : length Hv = n.
Hypothesis Hdx : length dxi = length xi.
Hypothesis Hdy : length dy = length y.
Hypothesis HrowsF : forall i, (i < n)%nat -> length (nth i Fm []) = length y.
Hypothesis HrowsG : forall i, (i < n)%nat -> length (nth i Gm []) = length xi.

Lemma nth_vadd_matvec (M : list (list R)) (x c : list R) i : (i < length M)%nat -> (i < length c)%nat ->
  nth i (vadd RA (matvec RA M x) c) 0 = rdot (nth i M []) x + nth i c 0.
Proof.
  intros HM Hc. unfold vadd, matvec.
  now rewrite nth_map2 with (da := 0) (db := 0), nth_map_d with (d' := []), dot_rdot by (rewrite ?map_length; lia').
Qed.

Lemma vadd_matvec_app (M1 M2 : list (list R)) (x c1 c2 : list R) : length c1 = length M1 ->
  vadd RA (matvec RA (M1 ++ M2) x) (c1 ++ c2) = vadd RA (matvec RA M1 x) c1 ++ vadd RA (matvec RA M2 x) c2.
Proof. intros H. unfold vadd, matvec. rewrite map_app, map2_app; auto. rewrite map_length. lia'. Qed.

(* THEOREM (linear, growth): measurement equations F y_t + G xi_t + H = 0 at EVERY date *)
Theorem linear_nonflat_measurement :
  zeros (vsub RA (matvec RA (negm RA (lin_FF RA Fm)) (y ++ dy))
                 (vadd RA (matvec RA (lin_GG RA Gm) (xi ++ dxi)) (Hv ++ Hv))) ->
  forall (t : Z) i, (i < n)%nat ->
    rdot (nth i Fm []) (vaxpy y dy (IZR t)) + rdot (nth i Gm []) (vaxpy xi dxi (IZR t)) + nth i Hv 0 = 0.
Proof.
  intros Hz t i Hi. unfold lin_GG, stack1 in Hz. rewrite vadd_matvec_app in Hz by (rewrite map_length; lia').
  apply solved_stacked in Hz; [|unfold vadd, matvec; rewrite length_map2, !map_length; lia']. destruct Hz as [Z0 Z1].
  apply solved_neg_row with (i := i) in Z0, Z1; unfold vadd, matvec; rewrite ?length_map2, ?map_length; try lia'.
  rewrite nth_vadd_matvec, !nth_map_d with (d' := []) in Z0, Z1 by (rewrite ?map_length; lia').
  rewrite !(rdot_row1 _ _ 1 0) in Z0 by (auto; lin). rewrite !(rdot_row1 _ _ 1 1) in Z1 by (auto; lin).
  rewrite !rdot_vaxpy by lia'. cR.
  set (p := rdot (nth i Fm []) y) in *. set (r := rdot (nth i Fm []) dy) in *.
  set (q := rdot (nth i Gm []) xi) in *. set (u := rdot (nth i Gm []) dxi) in *.
  set (h := nth i Hv 0) in *.
  assert (Hh : h = - p - q) by lra. assert (Hr : r = - u) by lra. rewrite Hh, Hr. ring.
Qed.

Theorem linear_flat_measurement :
  zeros (vsub RA (matvec RA (negm RA Fm) y) (vadd RA (matvec RA Gm xi) Hv)) ->
  forall i, (i < n)%nat -> rdot (nth i Fm []) y + rdot (nth i Gm []) xi + nth i Hv 0 = 0.
Proof.
  intros Hz i Hi. apply solved_neg_row with (i := i) in Hz; unfold vadd, matvec; rewrite ?length_map2, ?map_length; try lia'.
  rewrite nth_vadd_matvec in Hz by lia'. cR; lra.
Qed.

End Measurement.
End Linear.

Section ModelBlocks.
Open Scope R_scope.
Variables (flat : bool) (lg : list (option bool)) (kinds : list qkind) (tol : R) (nq : nat).

(* the steady path that the levels and changes stored in a variant define *)
Definition vpath (v : variant RA) (q : nat) (s : Z) : R :=
  variant_cell RA nobad (is_log lg q) (vget RA (v_levels RA v) q) (vget RA (v_changes RA v) q) s.

(* equation e holds (within tol) on the path of v at the dates the solver evaluates *)
Definition eq_holds (v : variant RA) (e : expr RA) : Prop :=
  Rabs (eval RA (at_date (vpath v) 0) e) < tol /\ (flat = false -> Rabs (eval RA (at_date (vpath v) 1) e) < tol).

Definition same_cells (v v' : variant RA) (q : nat) : Prop :=
  vget RA (v_levels RA v) q = vget RA (v_levels RA v') q /\ vget RA (v_changes RA v) q = vget RA (v_changes RA v') q.

Definition qids_of_expr (e : expr RA) : list nat := map fst (tokens RA e).

Lemma eq_holds_ext v v' e : (forall q, In q (qids_of_expr e) -> same_cells v v' q) -> eq_holds v e -> eq_holds v' e.
Proof.
  intros H [H0 H1].
  assert (E : forall d, eval RA (at_date (vpath v') d) e = eval RA (at_date (vpath v) d) e).
  { intros d. apply eval_ext. intros q s Hqs. unfold at_date, vpath.
    destruct (H q) as [El Ec]; [unfold qids_of_expr; apply in_map_iff; exists (q, s); auto|]. now rewrite El, Ec. }
  split; [|intros F]; rewrite E; auto.
Qed.

(* a block as the loop runs it: equations, solved level / change qids, the enumeration of its qids, the final guess *)
Record mblock := mkMB { mb_eqs : list (expr RA); mb_lq : list nat; mb_cq : list nat; mb_wrt : list nat; mb_g : list R }.

Definition mb_step (b : mblock) (v : variant RA) : variant RA :=
  the_v' flat lg kinds v (mb_wrt b) (mb_lq b) (mb_cq b) (mb_eqs b) (mb_g b).
Definition mb_resid (b : mblock) (v : variant RA) : list R :=
  ev_func RA (the_ev flat lg v (mb_wrt b) (mb_lq b) (mb_cq b) (mb_eqs b)) (mb_g b).

Definition flat_changes : list R := map (fun q => gen_zero_change RA (nth q lg None)) (seq 0 nq).

Definition vinv (v : variant RA) : Prop :=
  length (v_levels RA v) = nq /\ length (v_changes RA v) = nq /\ (flat = true -> v_changes RA v = flat_changes).

(* block b is well-formed and the solver succeeded on it when started from v *)
Definition mb_ok (b : mblock) (v : variant RA) : Prop :=
  NoDup (mb_wrt b) /\
  (forall q, In q (mb_wrt b) -> (q < nq)%nat) /\
  length (mb_g b) = (count_true (map (fun q => mem_nat q (mb_lq b)) (mb_wrt b)) +
                     count_true (if flat then [] else map (fun q => mem_nat q (mb_cq b)) (mb_wrt b)))%nat /\
  (forall q, In q (mb_wrt b) -> In q (mb_cq b) -> is_loggable (kind_of kinds q) = true) /\
  (forall e q s, In e (mb_eqs b) -> In (q, s) (tokens RA e) -> (q < nq)%nat) /\
  Forall (fun r => Rabs r < tol) (mb_resid b v).

(* one pass of the loop: the invariant is kept, only the cells solved for are written, the block's equations hold *)
Lemma mb_step_spec b v : vinv v -> mb_ok b v ->
  vinv (mb_step b v) /\
  (forall q, ~ (In q (mb_wrt b) /\ In q (mb_lq b)) ->
     vget RA (v_levels RA (mb_step b v)) q = vget RA (v_levels RA v) q) /\
  (forall q, ~ (flat = false /\ In q (mb_wrt b) /\ In q (mb_cq b)) ->
     vget RA (v_changes RA (mb_step b v)) q = vget RA (v_changes RA v) q) /\
  (forall e, In e (mb_eqs b) -> eq_holds (mb_step b v) e).
Proof.
  intros (Hl & Hc & Hf) (ND & Hlt & Hg & Hlog & Htok & Hs). unfold mb_step.
  assert (Hc' : length (v_changes RA v) = length (v_levels RA v)) by lia. rewrite <- Hl in Hlt, Htok.
  (* in flat mode the evaluator's reset of the changes changes nothing *)
  assert (E1 : v_changes RA (the_v1 flat lg v (mb_wrt b) (mb_lq b) (mb_cq b) (mb_eqs b)) = v_changes RA v).
  { rewrite v1_eq. destruct flat; [|reflexivity]. cbn [zero_changes v_changes]. rewrite Hc. symmetry. now apply Hf. }
  split; [repeat split|split; [|split]].
  - now rewrite v'_levels_length.
  - now rewrite v'_changes, update_from_array_length, v1_changes_length.
  - intros F. rewrite v'_changes, E1 by auto. unfold bc. rewrite F, !mask_select_nil. now apply Hf.
  - apply levels_untouched.
  - intros q Hq. now rewrite changes_untouched, E1.
  - exact (success_means_equations_hold flat lg kinds v _ _ _ _ _ Hc' ND Hlt Hg Hlog Htok tol Hs).
Qed.

Definition to_blk (b : mblock) : blk (variant RA) (expr RA) := mkBlk _ _ (mb_eqs b) (mb_wrt b) (mb_step b).

(* every block is well-formed and solved successfully in the state in which it is run *)
Fixpoint all_ok (bs : list mblock) (v : variant RA) : Prop :=
  match bs with
  | [] => True
  | b :: r => mb_ok b v /\ all_ok r (mb_step b v)
  end.

Definition run_mblocks (bs : list mblock) (v : variant RA) : variant RA := fold_left (fun v b => mb_step b v) bs v.

Lemma run_mblocks_vinv bs v : vinv v -> all_ok bs v -> vinv (run_mblocks bs v).
Proof.
  revert v; induction bs as [|b r IH]; intros v Hv H; simpl in *; auto.
  destruct H as [Hb Hr]. apply IH; auto. now apply mb_step_spec.
Qed.

Lemma all_ok_good bs v : vinv v -> all_ok bs v -> all_good _ _ eq_holds same_cells vinv (map to_blk bs) v.
Proof.
  revert v; induction bs as [|b r IH]; intros v Hv H; simpl in *; auto.
  destruct H as [Hb Hr]. destruct (mb_step_spec b v Hv Hb) as (Hi & HL & HC & HS).
  split; [|now apply IH]. split; [exact Hi|]. split; [|exact HS].
  intros q Hq. split; symmetry; [apply HL|apply HC]; tauto.
Qed.

(* no equation of a block mentions a quantity that a later block solves for *)
Fixpoint mtriangular (bs : list mblock) : Prop :=
  match bs with
  | [] => True
  | b :: r => (forall e, In e (mb_eqs b) -> forall b', In b' r -> forall q s, In q (mb_wrt b') -> ~ In (q, s) (tokens RA e))
              /\ mtriangular r
  end.

Lemma mtriangular_blk bs : mtriangular bs -> triangular _ _ qids_of_expr (map to_blk bs).
Proof.
  induction bs as [|b r IH]; simpl; auto. intros [T0 T]. split; auto.
  intros e He b' Hb' q Hq Hin. apply in_map_iff in Hb'. destruct Hb' as (mb & <- & Hmb).
  unfold qids_of_expr in Hin. apply in_map_iff in Hin. destruct Hin as ([q' s] & E & Hin). simpl in E. subst q'.
  exact (T0 e He mb Hmb q s Hq Hin).
Qed.

(* THEOREM: block by block in a block-triangular order, every equation of every block holds on the FINAL stored
   path (within tol at the evaluated dates) *)
Theorem model_blockwise bs v0 :
  vinv v0 -> all_ok bs v0 -> mtriangular bs ->
  forall b e, In b bs -> In e (mb_eqs b) -> eq_holds (run_mblocks bs v0) e.
Proof.
  intros Hv Hok Ht b e Hb He.
  replace (run_mblocks bs v0) with (run_blocks _ _ (map to_blk bs) v0)
    by (clear; revert v0; induction bs; intros v0; simpl; auto).
  apply (blockwise_equals_joint _ _ eq_holds same_cells qids_of_expr vinv eq_holds_ext (map to_blk bs) v0)
    with (b := to_blk b); auto.
  - now apply all_ok_good.
  - now apply mtriangular_blk.
  - now apply in_map.
Qed.

(* with flat changes (1 for log-variables, 0 for other variables, none for the rest) the path is constant, so in flat
   mode an equation that holds at the evaluated date holds at EVERY date *)
Theorem eq_holds_flat_every_date v e : flat = true -> vinv v -> eq_holds v e ->
  forall t, Rabs (eval RA (at_date (vpath v) t) e) < tol.
Proof.
  intros F (_ & _ & Hc) [H0 _] t. rewrite every_date_flat; auto.
  intros q s _ u. unfold vpath. rewrite (Hc F), !variant_cell_maybelog. unfold flat_changes. rewrite relog_zero_change.
  f_equal. ring.
Qed.

End ModelBlocks.

Section Loop.
Open Scope R_scope.
Variables (flat : bool) (lg : list (option bool)) (kinds : list qkind) (eqs : list (expr RA)) (fixl fixc : list nat).

Definition blk_lq (b : block) : list nat := sorted_minus (length kinds) (b_qids b) fixl.
Definition blk_cq (b : block) : list nat := sorted_minus (length kinds) (b_qids b) fixc.
Definition blk_eqs (b : block) : list (expr RA) := map (fun eid => nth eid eqs (EConst (miss RA))) (b_eids b).
(* has_no_qids or has_no_equations *)
Definition skipped (b : block) : bool :=
  (match blk_lq b, blk_cq b with [], [] => true | _, _ => false end) || (match blk_eqs b with [] => true | _ => false end).

(* the blocks that are actually handed to the solver, each with the oracle output it consumed *)
Fixpoint pair_blocks (bs : list block) (orcs : list (list nat * list R)) : list mblock :=
  match bs with
  | [] => []
  | b :: r =>
      if skipped b then pair_blocks r orcs
      else match orcs with
           | [] => pair_blocks r []
           | (wrt, g) :: orcs' => mkMB (blk_eqs b) (blk_lq b) (blk_cq b) wrt g :: pair_blocks r orcs'
           end
  end.

Fixpoint resid_trace (bs : list mblock) (v : variant RA) : list (list R) :=
  match bs with
  | [] => []
  | b :: r => mb_resid flat lg b v :: resid_trace r (mb_step flat lg kinds b v)
  end.

(* the fold of solve_block is the run of the paired blocks, and records their residual vectors *)
Lemma solve_blocks_run bs orcs v obs :
  let st := fold_left (solve_block RA nobad flat lg kinds eqs fixl fixc) bs (v, orcs, obs) in
  (fst (fst st), map (o_resid RA) (snd st)) =
  (run_mblocks flat lg kinds (pair_blocks bs orcs) v, map (o_resid RA) obs ++ resid_trace (pair_blocks bs orcs) v).
Proof.
  cbv zeta. revert orcs v obs; induction bs as [|b r IH]; intros orcs v obs; [simpl; now rewrite app_nil_r|].
  cbn [fold_left pair_blocks].
  unfold solve_block at 2 4. fold (blk_lq b). fold (blk_cq b). fold (blk_eqs b). fold (skipped b).
  destruct (skipped b); [apply IH|]. destruct orcs as [|[wrt g] orcs']; [apply IH|].
  destruct (make_evaluator RA nobad flat lg v wrt (blk_lq b) (blk_cq b) (blk_eqs b)) as [v1 ev] eqn:E.
  rewrite IH, map_app, <- app_assoc. cbn [map app resid_trace run_mblocks fold_left o_resid].
  unfold mb_resid, mb_step, the_v', the_v1, the_ev. cbn [mb_wrt mb_lq mb_cq mb_eqs mb_g]. now rewrite E.
Qed.

Lemma variant_eta (v : variant RA) : mkVariant RA (v_levels RA v) (v_changes RA v) = v.
Proof. destruct v; reflexivity. Qed.

(* well-formedness of a block (everything in mb_ok except the solver's success) *)
Definition mb_wf (nq : nat) (b : mblock) : Prop :=
  NoDup (mb_wrt b) /\
  (forall q, In q (mb_wrt b) -> (q < nq)%nat) /\
  length (mb_g b) = (count_true (map (fun q => mem_nat q (mb_lq b)) (mb_wrt b)) +
                     count_true (if flat then [] else map (fun q => mem_nat q (mb_cq b)) (mb_wrt b)))%nat /\
  (forall q, In q (mb_wrt b) -> In q (mb_cq b) -> is_loggable (kind_of kinds q) = true) /\
  (forall e q s, In e (mb_eqs b) -> In (q, s) (tokens RA e) -> (q < nq)%nat).

Lemma trace_all_ok tol nq bs v :
  Forall (mb_wf nq) bs -> Forall (Forall (fun r => Rabs r < tol)) (resid_trace bs v) ->
  all_ok flat lg kinds tol nq bs v.
Proof.
  revert v; induction bs as [|b r IH]; intros v Hw Ht; simpl in *; auto.
  inversion Hw as [|? ? (A & B & C & D & E) Hw']; subst. inversion Ht as [|? ? Hb Ht']; subst.
  split; [repeat split; auto|apply IH; auto].
Qed.

End Loop.

(* what steady_nonlinear stores and records: the blocks that are not skipped, run one after another *)
Lemma steady_nonlinear_run flat lg kinds eqs p split blocks orcs v :
  let res := steady_nonlinear RA nobad flat lg kinds eqs p split blocks orcs v in
  let mbs := pair_blocks kinds eqs (snd (fst (resolve_wrt kinds p))) (snd (resolve_wrt kinds p))
               (if split then blocks else [mkBlock (seq 0 (length eqs)) (fst (fst (resolve_wrt kinds p)))]) orcs in
  mkVariant RA (r_levels RA res) (r_changes RA res) = run_mblocks flat lg kinds mbs v /\
  map (o_resid RA) (r_blocks RA res) = resid_trace flat lg kinds mbs v.
Proof.
  cbv zeta. unfold steady_nonlinear. destruct (resolve_wrt kinds p) as [[w fl] fc]. cbn [fst snd].
  pose proof (solve_blocks_run flat lg kinds eqs fl fc (if split then blocks else [mkBlock (seq 0 (length eqs)) w]) orcs v []) as R.
  cbv zeta in R. destruct (fold_left _ _ _) as [[v' o] obs]. injection R as R1 R2.
  cbn [r_levels r_changes r_blocks]. now rewrite variant_eta.
Qed.

(* one block (split_into_blocks=False) is trivially triangular *)
Lemma mtriangular_single (b : mblock) : mtriangular [b].
Proof. simpl. split; [intros e _ b' Hb'; destruct Hb'|exact I]. Qed.

(* evaluate the model, leave the real arithmetic *)
Ltac rcompute := cbv -[Rplus Rmult Rminus Rdiv Ropp Rinv IZR Rabs Rlt Rle Rpower.ln Rtrigo_def.exp Rpower].

Section Examples.
Open Scope R_scope.

(* flat, stationary:  x = 1/2 x{-1} + 1 ; the solver's final guess is 2 *)
Definition ex_flat_eq : expr RA := EAdd (ENeg (EVar 0 0)) (EAdd (EMul (@EConst RA (1/2)) (EVar 0 (-1))) (@EConst RA 1)).
Definition ex_flat_v : variant RA := mkVariant RA [1] [0].
Definition ex_flat_res := steady_nonlinear RA nobad true [Some false] [KEndog] [ex_flat_eq] (mkPlan [] [] [] []) false []
                                           [([0%nat], [2])] ex_flat_v.
Definition ex_flat_mbs := pair_blocks [KEndog] [ex_flat_eq] [] [] [mkBlock [0%nat] [0%nat]] [([0%nat], [2])].

Lemma Rabs_zero_lt x tol : x = 0 -> 0 < tol -> Rabs x < tol.
Proof. intros -> H. now rewrite Rabs_R0. Qed.

(* growth, unit root with drift:  u = u{-1} + g  with g = 3 ; final guess level 5, change 3 *)
Definition ex_rw_eq : expr RA := EAdd (ENeg (EVar 0 0)) (EAdd (EVar 0 (-1)) (EVar 1 0)).
Definition ex_rw_v : variant RA := mkVariant RA [1; 3] [0; 0].
Definition ex_rw_res := steady_nonlinear RA nobad false [Some false; None] [KEndog; KParam] [ex_rw_eq] (mkPlan [] [] [] []) false []
                                         [([0%nat], [5; 3])] ex_rw_v.
Definition ex_rw_mbs := pair_blocks [KEndog; KParam] [ex_rw_eq] [] [] [mkBlock [0%nat] [0%nat]] [([0%nat], [5; 3])].

End Examples.
