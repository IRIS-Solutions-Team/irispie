(* Proofs about the codecs (model/Codecs.v): frequency conversion; round trips through ISO strings, SDMX strings with
   auto-detection, repr, (year, month, day) and Python dates. *)
From Coq Require Import ZArith Bool Ascii String List Lia.
From Verif Require Import lib.Calendar lib.RegexSub lib.PyStr gen.DatesGen model.Dates model.Codecs
     proofs.DatesProofs.
Import ListNotations.
Open Scope Z_scope.

Lemma refrequent_of_date : forall g pos p y m d, to_ymd pos p = Ok (y, m, d) -> refrequent g pos p = from_ymd g y m d.
Proof. intros g pos p y m d A. unfold refrequent. rewrite A. reflexivity. Qed.

(* converting a period to another frequency returns the target period containing the chosen day of the source *)
Theorem refrequent_contains : forall p pos g, in_domain p -> cal_freq g ->
  exists r y m d a c,
    refrequent g pos p = Ok r /\ p_freq r = g /\ to_ymd pos p = Ok (y, m, d) /\
    to_ymd PStart r = Ok a /\ to_ymd PEnd r = Ok c /\
    ord3 a <= ord_of_ymd y m d <= ord3 c.
Proof.
  intros p pos g D G. destruct (domain_date p pos D) as (y & m & d & A & V & Y & _).
  destruct (from_ymd_contains g y m d G V Y) as (r & a & c & F & Fr & _ & Sa & Sc & _ & _ & O).
  exists r, y, m, d, a, c. rewrite (refrequent_of_date g pos p y m d A). auto 10.
Qed.

Lemma from_ymd_mono : forall g y m d y' m' d' r r', cal_freq g ->
  valid_ymd y m d -> valid_ymd y' m' d' -> y <= MAXYEAR -> y' <= MAXYEAR -> ymd_le (y, m, d) (y', m', d') ->
  from_ymd g y m d = Ok r -> from_ymd g y' m' d' = Ok r' -> p_freq r = p_freq r' /\ p_serial r <= p_serial r'.
Proof.
  intros g y m d y' m' d' r r' [R | ->] V V' Y Y' L A B.
  - rewrite from_ymd_regular in A, B by assumption. injection A as <-. injection B as <-. split; [reflexivity |]. cbn [p_serial].
    destruct V as (_ & M & _). destruct V' as (_ & M' & _).
    destruct (mts_spec g m R M) as (S & _). destruct (mts_spec g m' R M') as (S' & _). cbv zeta in S, S'.
    destruct L as [E | L]; [injection E as <- <- <-; lia |]. cbn [ymd_lt] in L.
    destruct L as [L | (<- & L)].
    + pose proof (regular_pos g R). nia.
    + pose proof (mts_mono g m m' R ltac:(lia)). lia.
  - rewrite from_ymd_daily in A, B by assumption. injection A as <-. injection B as <-. split; [reflexivity |]. cbn [p_serial].
    destruct L as [E | L]; [injection E as <- <- <-; lia |].
    apply Z.lt_le_incl. apply ord_of_ymd_lt; assumption.
Qed.

Theorem refrequent_monotone : forall p q pos g r r', in_domain p -> in_domain q -> cal_freq g ->
  p_freq p = p_freq q -> p_serial p <= p_serial q ->
  refrequent g pos p = Ok r -> refrequent g pos q = Ok r' -> p_freq r = p_freq r' /\ p_serial r <= p_serial r'.
Proof.
  intros p q pos g r r' Dp Dq G F L A B.
  destruct (domain_date p pos Dp) as (y & m & d & Ap & V & Y & Bp).
  destruct (domain_date q pos Dq) as (y' & m' & d' & Aq & V' & Y' & Bq).
  rewrite (refrequent_of_date g pos p y m d Ap) in A. rewrite (refrequent_of_date g pos q y' m' d' Aq) in B.
  apply (from_ymd_mono g y m d y' m' d' r r' G V V' Y Y'); try assumption.
  (* the dates are ordered as the serials: were the date of q the earlier one, from_ymd, being monotone, would give
     p_serial q <= p_serial p, hence q = p *)
  assert (T : (y = y' /\ m = m' /\ d = d') \/ ymd_lt (y, m, d) (y', m', d') \/ ymd_lt (y', m', d') (y, m, d)) by (cbn; lia).
  destruct T as [(-> & -> & ->) | [T | T]]; [left; reflexivity | right; exact T | left].
  assert (Gp : cal_freq (p_freq p)) by (destruct Dp as [[R _] | [E _]]; [left | right]; assumption).
  rewrite <- F in Bq.
  destruct (from_ymd_mono (p_freq p) y' m' d' y m d q p Gp V' V Y' Y (or_intror T) Bq Bp) as [_ L'].
  assert (q = p) by (destruct p as [f s], q as [f' s']; cbn [p_freq p_serial] in *; f_equal; lia). congruence.
Qed.

(* coarse -> fine -> coarse never leaves the original coarse period *)
Definition finer (f g : Z) : Prop :=
  is_regular_freq f = true /\ ((is_regular_freq g = true /\ g mod f = 0) \/ g = freq_DAILY).

Lemma nesting : forall f g m m', is_regular_freq f = true -> is_regular_freq g = true -> g mod f = 0 ->
  month_to_segment g m' = month_to_segment g m -> month_to_segment f m' = month_to_segment f m.
Proof.
  intros f g m m' Rf Rg D E.
  destruct (regular_cases f Rf) as [-> | [-> | [-> | ->]]]; [reflexivity | ..];   (* yearly: one segment *)
    destruct (regular_cases g Rg) as [-> | [-> | [-> | ->]]]; try discriminate D; try exact E;
    try (rewrite (E : m' = m); reflexivity).                                      (* months: m' = m *)
  (* quarters within half-years *)
  change (1 + (m' - 1) / 3 = 1 + (m - 1) / 3) in E. change (1 + (m' - 1) / 6 = 1 + (m - 1) / 6). Z.div_mod_to_equations; lia.
Qed.

Theorem coarse_fine_coarse : forall f g s pos1 pos2, finer f g -> 1 <= s / f <= MAXYEAR ->
  exists r, refrequent g pos1 (mkP f s) = Ok r /\ p_freq r = g /\ refrequent f pos2 r = Ok (mkP f s).
Proof.
  intros f g s pos1 pos2 (Rf & G) Y.
  destruct (domain_date (mkP f s) pos1 (or_introl (conj Rf Y))) as (y & m & d & A & V & YM & B). cbn [p_freq] in B.
  rewrite (refrequent_of_date g pos1 _ y m d A).
  destruct G as [(Rg & D) | ->].
  - (* regular finer target: any month of the target period lies in the segment of f that holds m *)
    destruct (mts_spec g m Rg (proj1 (proj2 V))) as (S & _). cbv zeta in S.
    destruct (year_seg_of_serial g y _ (regular_pos g Rg) S) as (Ey & Es).
    exists (mkP g (y * g + month_to_segment g m - 1)). split; [apply from_ymd_regular; assumption |]. split; [reflexivity |].
    destruct (ymd_roundtrip_regular g (y * g + month_to_segment g m - 1) pos2 Rg) as (y2 & m2 & d2 & A2 & _ & -> & Em2 & _).
    rewrite Ey in *. rewrite Es in Em2.
    rewrite (refrequent_of_date f pos2 _ _ _ _ A2), <- B, !from_ymd_regular by assumption.
    rewrite (nesting f g m m2 Rf Rg D (mts_of_segment g _ m2 Rg S Em2)). reflexivity.
  - (* daily target: the chosen day itself *)
    exists (mkP freq_DAILY (ord_of_ymd y m d)). split; [apply from_ymd_daily; assumption |]. split; [reflexivity |].
    destruct (accessors_vs_calendar_daily _ (ord_in_calendar y m d V YM)) as (TA & _).
    specialize (TA pos2). rewrite ymd_of_ord_of_ymd in TA by assumption. rewrite (refrequent_of_date f pos2 _ y m d TA). exact B.
Qed.

Lemma hd_error_app : forall (a b : str), a <> [] -> hd_error (a ++ b) = hd_error a.
Proof. intros [| x t] b H; [congruence | reflexivity]. Qed.

Lemma dash_not_digit : is_digit "-" = false.
Proof. reflexivity. Qed.

Lemma to_iso_string_form : forall y m d, 0 <= y < 1000000 -> 0 <= m < 1000000 -> 0 <= d < 1000000 ->
  render (gen_to_iso y m d) = Some (join (s2l "-") (zp 4 y) [zp 2 m; zp 2 d]).
Proof.
  intros y m d Y M D. unfold gen_to_iso. cbn [render render_piece]. rewrite !fmt_g_zero by assumption.
  cbn [join app]. rewrite app_nil_r. reflexivity.
Qed.

Lemma from_iso_of_form : forall f y m d, 0 <= y -> 0 <= m -> 0 <= d ->
  from_iso f (join (s2l "-") (zp 4 y) [zp 2 m; zp 2 d]) = from_ymd f y m d.
Proof.
  intros f y m d Y M D. unfold from_iso, gen_iso_sep. cbn [s2l list_ascii_of_string].
  rewrite split_on_join by auto using dash_not_digit, zp_field. rewrite !parse_int_zp by assumption. reflexivity.
Qed.

(* to_iso_string at any position, then from_iso_string with the same frequency *)
Theorem iso_roundtrip : forall p pos, in_domain p ->
  exists x, to_iso pos p = Ok x /\ from_iso (p_freq p) x = Ok p.
Proof.
  intros p pos D. destruct (domain_date p pos D) as (y & m & d & A & V & Y & B).
  destruct V as (V1 & V2 & V3). pose proof (dim_range y m). unfold MAXYEAR in Y.
  eexists. unfold to_iso. rewrite A. cbn [bind unpack_ymd]. rewrite to_iso_string_form by lia. cbn [of_opt].
  split; [reflexivity |]. rewrite from_iso_of_form by lia. exact B.
Qed.

(* Decoding, for every class whose text is digit fields joined by a separator: the fields come back as the numbers printed. *)
Lemma from_sdmx_as_join : forall f ps c t a r ns s,
  parser_of f = Some ps -> sp_prefix ps = ""%string -> sp_suffix ps = ""%string ->
  option_map s2l (sp_sep ps) = Some (c :: t) -> is_digit c = false ->
  Forall field (a :: r) -> length (a :: r) = sp_npieces ps -> map parse_int (a :: r) = map Some ns ->
  sp_build ps ns = Some s ->
  from_sdmx_as f (join (c :: t) a r) = Ok (mkP f s).
Proof.
  intros f ps c t a r ns s P Pf Sf Sp C F Ln Pi B. unfold from_sdmx_as. rewrite P.
  rewrite (parse_with_spec ps _ (join (c :: t) a r) (a :: r) ns), B; try assumption.
  - reflexivity.
  - rewrite Pf, Sf. symmetry. apply app_nil_r.
  - intros _. apply strip_join, F.
  - destruct (sp_sep ps) as [x |]; [| discriminate]. injection Sp as ->. apply split_on_join; assumption.
Qed.

(* Auto-detection of a text that fits the fixed-length pattern q: an entry whose pattern accepts no text that q
   accepts is passed over; the entry that has the pattern q is taken. *)
Lemma detect_in_apart : forall q s f len r p rest, atoms_match q s = true -> atoms_of r = Some p -> apart p q = true ->
  detect_in ((f, (len, r)) :: rest) s = detect_in rest s.
Proof.
  intros q s f len r p rest S R A. cbn [detect_in].
  rewrite (atoms_of_sound r p s R), (apart_sound p q s A S), andb_false_r. reflexivity.
Qed.

Lemma detect_in_shape : forall q s f r rest, atoms_match q s = true -> atoms_of r = Some q ->
  detect_in ((f, (Some (length q), r)) :: rest) s = Some f.
Proof.
  intros q s f r rest S R. cbn [detect_in].
  rewrite (atoms_match_length q s S), Nat.eqb_refl, (atoms_of_sound r q s R), S. reflexivity.
Qed.

(* Detection of a text s that fits the pattern q (S : atoms_match q s = true): the entries of SDMX_REXP_FORMATS before
   the one with the pattern q are apart from q. *)
Ltac detect_by_shape S :=
  unfold gen_sdmx_formats; repeat (erewrite (detect_in_apart _ _ _ _ _ _ _ S) by reflexivity);
  apply (detect_in_shape _ _ _ _ _ S); reflexivity.

(* decide the tests  f =? <class frequency>  of a dispatch on a concrete f (a test on a variable f does not evaluate to
   a literal and is left alone) *)
Ltac freq_tests :=
  repeat match goal with
         | |- context [Z.eqb ?a ?b] =>
             let v := eval vm_compute in (Z.eqb a b) in
             match v with true => idtac | false => idtac end; change (Z.eqb a b) with v
         end; cbv iota.

(* the text of a period of each class, its decoding with the frequency given, and the frequency detected from it *)
Lemma sdmx_Y : forall s, 1 <= s <= 9999 ->
  to_sdmx (mkP freq_YEARLY s) = Ok (zp 4 s) /\ from_sdmx_as freq_YEARLY (zp 4 s) = Ok (mkP freq_YEARLY s) /\
  detect (zp 4 s) = Some freq_YEARLY.
Proof.
  intros s H. pose proof (strip_field _ (zp_field 4 s ltac:(lia))) as St. split; [| split].
  - unfold to_sdmx, sdmx_pieces. cbn [p_freq p_serial]. freq_tests. unfold gen_to_sdmx_YEARLY, freq_YEARLY.
    cbn [of_opt bind render render_piece]. rewrite Z.div_1_r, fmt_g_zero by lia. cbn [of_opt]. rewrite app_nil_r. reflexivity.
  - unfold from_sdmx_as. change (parser_of freq_YEARLY) with (Some gen_from_sdmx_YEARLY). cbv iota.
    rewrite (parse_with_spec gen_from_sdmx_YEARLY (zp 4 s) (zp 4 s) [zp 4 s] [s]); try reflexivity.
    + symmetry. apply app_nil_r.
    + intros _. exact St.
    + cbn [map]. rewrite parse_int_zp by lia. reflexivity.
  - pose proof (zp_shape 3 s ltac:(lia)) as S. unfold detect. rewrite St. detect_by_shape S.
Qed.

Lemma sdmx_M : forall s, 1 <= s / 12 <= 9999 ->
  let x := join (s2l "-") (zp 4 (s / 12)) [zp 2 (s mod 12 + 1)] in
  to_sdmx (mkP freq_MONTHLY s) = Ok x /\ from_sdmx_as freq_MONTHLY x = Ok (mkP freq_MONTHLY s) /\
  detect x = Some freq_MONTHLY.
Proof.
  intros s Y x. pose proof (Z.mod_pos_bound s 12 eq_refl) as M.
  assert (F : Forall field [zp 4 (s / 12); zp 2 (s mod 12 + 1)]) by (repeat constructor; apply zp_field; lia).
  split; [| split].
  - unfold to_sdmx, sdmx_pieces. cbn [p_freq p_serial]. freq_tests. unfold gen_to_sdmx_MONTHLY, freq_MONTHLY.
    cbn [of_opt bind render render_piece]. rewrite !fmt_g_zero by lia. cbn [of_opt]. rewrite app_nil_r. reflexivity.
  - apply (from_sdmx_as_join _ gen_from_sdmx_MONTHLY _ _ _ _ [s / 12; s mod 12 + 1]); try reflexivity; try exact F.
    + cbn [map]. rewrite !parse_int_zp by lia. reflexivity.
    + cbn [sp_build gen_from_sdmx_MONTHLY nth]. unfold freq_MONTHLY. f_equal. Z.div_mod_to_equations; lia.
  - assert (S : atoms_match (join [AChr "-"] (repeat ADigit 4) [repeat ADigit 2]) x = true)
      by (apply (join_shape (s2l "-") [2%nat]); repeat constructor; apply zp_shape; lia).
    subst x. unfold detect. rewrite strip_join by exact F. detect_by_shape S.
Qed.

Lemma sdmx_HQ : forall f (L : string) s, (f = freq_HALFYEARLY /\ L = "H"%string) \/ (f = freq_QUARTERLY /\ L = "Q"%string) ->
  1 <= s / f <= 9999 ->
  let x := join ("-"%char :: s2l L) (zp 4 (s / f)) [zp 1 (s mod f + 1)] in
  to_sdmx (mkP f s) = Ok x /\ from_sdmx_as f x = Ok (mkP f s) /\ detect x = Some f.
Proof.
  intros f L s FL Y x.
  assert (M : 0 <= s mod f < f /\ f <= 4)
    by (destruct FL as [[-> _] | [-> _]]; (split; [apply Z.mod_pos_bound; reflexivity | discriminate])).
  assert (F : Forall field [zp 4 (s / f); zp 1 (s mod f + 1)]) by (repeat constructor; apply zp_field; lia).
  assert (S : atoms_match (join (map AChr ("-"%char :: s2l L)) (repeat ADigit 4) [repeat ADigit 1]) x = true)
    by (apply (join_shape _ [1%nat]); repeat constructor; apply zp_shape; lia).
  destruct FL as [[-> ->] | [-> ->]]; (split; [| split]).
  (* both classes by the same steps: the text, *)
  1,4: unfold to_sdmx, sdmx_pieces; cbn [p_freq p_serial]; freq_tests;
    unfold gen_to_sdmx_HALFYEARLY, gen_to_sdmx_QUARTERLY; cbn [of_opt bind render render_piece];
    rewrite fmt_g_zero, fmt_g_one by lia; cbn [of_opt]; rewrite app_nil_r; reflexivity.
  (* its decoding, *)
  1,3: eapply (from_sdmx_as_join _ _ _ _ _ _ [_; _]); try reflexivity; try exact F;
    [cbn [map]; rewrite !parse_int_zp by lia; reflexivity |
     cbn [sp_build gen_from_sdmx_HALFYEARLY gen_from_sdmx_QUARTERLY nth]; f_equal;
     unfold freq_HALFYEARLY, freq_QUARTERLY; Z.div_mod_to_equations; lia].
  (* the detection *)
  all: subst x; unfold detect; rewrite strip_join by exact F; detect_by_shape S.
Qed.

Lemma sdmx_D : forall n, in_calendar n ->
  let x := join (s2l "-") (zp 4 (year_of_ord n)) [zp 2 (month_of_ord n); zp 2 (day_of_ord n)] in
  to_sdmx (mkP freq_DAILY n) = Ok x /\ from_sdmx_as freq_DAILY x = Ok (mkP freq_DAILY n) /\ detect x = Some freq_DAILY.
Proof.
  intros n C x. pose proof (year_in_range n C) as Y. unfold MINYEAR, MAXYEAR in Y.
  pose proof (ord_of_ymd_of_ord n) as W. rewrite <- ymd_of_ord_eta in W. destruct W as (W & Wm & Wd & _).
  pose proof (dim_range (year_of_ord n) (month_of_ord n)).
  assert (F : Forall field [zp 4 (year_of_ord n); zp 2 (month_of_ord n); zp 2 (day_of_ord n)])
    by (repeat constructor; apply zp_field; lia).
  split; [| split].
  - unfold to_sdmx, sdmx_pieces. cbn [p_freq p_serial]. freq_tests. unfold gen_to_sdmx_DAILY. rewrite (ord_ok_true n C).
    cbn [of_opt bind render render_piece]. rewrite !fmt_g_zero by lia. cbn [of_opt]. rewrite app_nil_r. reflexivity.
  - apply (from_sdmx_as_join _ gen_from_sdmx_DAILY _ _ _ _ [year_of_ord n; month_of_ord n; day_of_ord n]);
      try reflexivity; try exact F.
    + cbn [map]. rewrite !parse_int_zp by lia. reflexivity.
    + cbn [sp_build gen_from_sdmx_DAILY nth]. rewrite (proj2 (date_ok_spec _ _ _)), W by (unfold valid_ymd, MAXYEAR; lia).
      reflexivity.
  - assert (S : atoms_match (join [AChr "-"] (repeat ADigit 4) [repeat ADigit 2; repeat ADigit 2]) x = true)
      by (apply (join_shape (s2l "-") [2%nat; 2%nat]); repeat constructor; apply zp_shape; lia).
    subst x. unfold detect. rewrite strip_join by exact F. detect_by_shape S.
Qed.

(* the integer class: "(" then str(n) then ")" *)
Lemma matches_int_text : forall n,
  Matches (seq_of [Chr "("; Opt (Cls ["-"; "+"]%char); Plus Digit; Chr ")"]%char) ("("%char :: dec_int n ++ [")"%char]).
Proof.
  intros n. cbn [seq_of]. apply (MSeq _ _ ["("%char]); [constructor |].
  assert (T : forall s, all_digits s = true /\ s <> [] -> Matches (Seq (Plus Digit) (Seq (Chr ")") Eps)) (s ++ [")"%char])).
  { intros s [D N]. apply MSeq; [apply matches_plus_digits; assumption |]. apply (MSeq _ _ [")"%char] []); constructor. }
  unfold dec_int. destruct (Z.ltb_spec n 0).
  - apply (MSeq _ _ ["-"%char]); [apply MOptSome; constructor; left; reflexivity | apply T, dec_nat_digits; lia].
  - apply (MSeq _ _ []); [apply MOptNone | apply T, dec_nat_digits; lia].
Qed.

(* an entry whose pattern cannot match the first character of the text is passed over *)
Lemma detect_in_head : forall c t f len r a p rest, atoms_of r = Some (a :: p) -> atom_match a c = false ->
  detect_in ((f, (len, r)) :: rest) (c :: t) = detect_in rest (c :: t).
Proof.
  intros c t f len r a p rest R A. cbn [detect_in]. rewrite (atoms_of_sound r _ (c :: t) R). cbn [atoms_match].
  rewrite A, andb_false_r. reflexivity.
Qed.

Lemma sdmx_I : forall n,
  let x := "("%char :: dec_int n ++ [")"%char] in
  to_sdmx (mkP freq_INTEGER n) = Ok x /\ from_sdmx_as freq_INTEGER x = Ok (mkP freq_INTEGER n) /\
  detect x = Some freq_INTEGER.
Proof.
  intros n x.
  assert (St : strip x = x) by (apply (strip_id x "(" (dec_int n ++ [")"%char]) ("("%char :: dec_int n) ")"); reflexivity).
  split; [| split].
  - unfold to_sdmx, sdmx_pieces. cbn [p_freq p_serial]. freq_tests. unfold gen_to_sdmx_INTEGER.
    cbn [of_opt bind render render_piece s2l list_ascii_of_string app]. reflexivity.
  - unfold from_sdmx_as. change (parser_of freq_INTEGER) with (Some gen_from_sdmx_INTEGER). cbv iota.
    rewrite (parse_with_spec gen_from_sdmx_INTEGER x (dec_int n) [dec_int n] [n]); try reflexivity.
    + intros _. exact St.
    + cbn [map]. rewrite parse_int_dec_int. reflexivity.
  - subst x. unfold detect. rewrite St. unfold gen_sdmx_formats.
    repeat (erewrite detect_in_head by reflexivity). cbn [detect_in andb].
    rewrite (proj2 (fullmatch_spec _ _) (matches_int_text n)). reflexivity.
Qed.

(* for every period of every class: the text produced by to_sdmx_string is decoded to the same period, both with the
   frequency given and with the frequency auto-detected from the text *)
Definition sdmx_domain (p : period) : Prop :=
  in_domain p \/ p_freq p = freq_INTEGER.

Theorem sdmx_roundtrip_autodetect : forall p, sdmx_domain p ->
  exists x, to_sdmx p = Ok x /\ from_sdmx_as (p_freq p) x = Ok p /\ detect x = Some (p_freq p) /\ from_sdmx x = Ok p.
Proof.
  intros [f s] D.
  enough (exists x, to_sdmx (mkP f s) = Ok x /\ from_sdmx_as f x = Ok (mkP f s) /\ detect x = Some f) as (x & A & B & C).
  { exists x. unfold from_sdmx. cbn [p_freq]. rewrite C. auto. }
  destruct D as [[[R Y] | [E C]] | E]; cbn [p_freq p_serial] in *; unfold MAXYEAR in *.
  - destruct (regular_cases f R) as [-> | [-> | [-> | ->]]]; eexists.
    + rewrite Z.div_1_r in Y. apply sdmx_Y, Y.
    + apply (sdmx_HQ 2 "H"); [left; split; reflexivity | exact Y].
    + apply (sdmx_HQ 4 "Q"); [right; split; reflexivity | exact Y].
    + apply sdmx_M, Y.
  - subst f. eexists. apply sdmx_D, C.
  - subst f. eexists. apply sdmx_I.
Qed.

(* eval(repr(p)) on the structured term: the constructor named in the text applied to the integers in the text *)
Theorem repr_roundtrip : forall p, sdmx_domain p ->
  exists t, repr_term p = Ok t /\ eval_term t = Ok p.
Proof.
  intros [f s] D. destruct D as [[[R Y] | [E C]] | E]; cbn [p_freq p_serial] in *.
  - destruct (accessors_vs_calendar_regular f s R) as (_ & _ & _ & _ & FY & _). cbv zeta in FY.
    (* the term holds the year and the segment (yearly: the year alone, the segment being 1) *)
    destruct (regular_cases f R) as [-> | [-> | [-> | ->]]]; [rewrite Z.mod_1_r in FY | ..];
      (eexists; split; [unfold repr_term, repr_pieces; cbn [p_freq p_serial]; freq_tests; reflexivity | exact FY]).
  - subst f. destruct (accessors_vs_calendar_daily s C) as (_ & _ & _ & _ & _ & _ & _ & FY).
    rewrite <- ymd_of_ord_eta in FY.
    eexists. split.
    + unfold repr_term, repr_pieces. cbn [p_freq p_serial]. freq_tests. unfold gen_repr_DAILY. rewrite (ord_ok_true s C).
      reflexivity.
    + exact FY.
  - subst f. eexists. split; [unfold repr_term, repr_pieces; cbn [p_freq p_serial]; freq_tests |]; reflexivity.
Qed.

Theorem ymd_roundtrip : forall p pos, in_domain p ->
  exists y m d, to_ymd pos p = Ok (y, m, d) /\ from_ymd (p_freq p) y m d = Ok p.
Proof. intros p pos D. destruct (domain_date p pos D) as (y & m & d & A & _ & _ & B). eauto. Qed.

(* Python dates: to_python_date accepts the date of the period, from_python_date returns the period *)
Theorem pydate_roundtrip : forall p pos, in_domain p ->
  exists t, to_pydate pos p = Ok t /\ from_pydate (p_freq p) t = Ok p.
Proof.
  intros p pos D. destruct (domain_date p pos D) as (y & m & d & A & V & Y & B).
  exists (y, m, d). unfold to_pydate. rewrite A. cbn [bind unpack_ymd].
  rewrite (proj2 (date_ok_spec y m d) (conj V Y)). split; [reflexivity | exact B].
Qed.

Example codecs_examples :
  in_domain (mkP 4 8082) /\ in_domain (mkP freq_DAILY 738000) /\ sdmx_domain (mkP freq_INTEGER (-5)) /\
  finer 4 12 /\ finer 2 freq_DAILY /\ cal_freq 12 /\
  to_sdmx (mkP 4 8082) = Ok (s2l "2020-Q3") /\ from_sdmx (s2l "2020-Q3") = Ok (mkP 4 8082) /\
  to_sdmx (mkP freq_INTEGER (-5)) = Ok (s2l "(-5)") /\ from_sdmx (s2l "(-5)") = Ok (mkP freq_INTEGER (-5)) /\
  to_iso PEnd (mkP 12 24241) = Ok (s2l "2020-02-29") /\ repr_str (mkP freq_DAILY 738000) = Ok (s2l "dd(2021,7,29)") /\
  refrequent 12 PEnd (mkP 4 8082) = Ok (mkP 12 24248) /\ refrequent 4 PMiddle (mkP 12 24248) = Ok (mkP 4 8082).
Proof.
  assert (D1 : in_domain (mkP 4 8082)) by (left; split; [reflexivity | vm_compute; split; discriminate]).
  assert (D2 : in_domain (mkP freq_DAILY 738000))
    by (right; split; [reflexivity | unfold in_calendar, max_ordinal; cbn; lia]).
  assert (D3 : sdmx_domain (mkP freq_INTEGER (-5))) by (right; reflexivity).
  assert (F1 : finer 4 12) by (split; [reflexivity | left; split; reflexivity]).
  assert (F2 : finer 2 freq_DAILY) by (split; [reflexivity | right; reflexivity]).
  assert (C1 : cal_freq 12) by (left; reflexivity).
  refine (conj D1 (conj D2 (conj D3 (conj F1 (conj F2 (conj C1 _)))))).
  refine (conj _ (conj _ (conj _ (conj _ (conj _ (conj _ (conj _ _))))))); vm_compute; reflexivity.
Qed.
