(* Proofs about the Kalman model (model/Kalman.v) on the MathComp instance (lib/MatMC.v):
   forward pass = Gaussian conditioning, likelihood laws, variance rescaling. *)
From mathcomp Require Import all_ssreflect all_algebra.
From Verif.lib Require Import MatOps MatMC MatLemmas.
From Verif.model Require Import Kalman.
From Verif.proofs Require Import KalmanStepEqs.
Set Implicit Arguments.
Unset Strict Implicit.
Unset Printing Implicit Defensive.
Import GRing.Theory Num.Theory.
Local Open Scope ring_scope.

Section KalmanProofs.
Variable F : realFieldType.
Variables (flog : F -> F) (flog2pi : F).
Notation M := (MC flog flog2pi).
Variables n nw : nat.
Notation symz := (@symmetrize M _).
Notation kstep := (@kf_step M n nw).
Notation krun := (@kf_run M n nw).

Lemma symmetrizeE k (X : 'M[F]_k) : symz X = 2%:R^-1 *: (X + X^T).
Proof. by rewrite /symmetrize /shalf /= div1r. Qed.

Lemma symmetrize_sym k (X : 'M[F]_k) : is_sym (symz X).
Proof. by rewrite /is_sym !symmetrizeE linearZ /= linearD /= trmxK addrC. Qed.

Lemma symmetrize_id k (X : 'M[F]_k) : X^T = X -> symz X = X.
Proof.
move=> sX; rewrite symmetrizeE sX -mulr2n -scaler_nat scalerA mulVf ?scale1r //.
by rewrite pnatr_eq0.
Qed.

Notation period := (period M n nw).
Notation ushock := (@ushock M n).
Implicit Types (p : period) (a : 'cV[F]_n) (Q : 'M[F]_n) (us : ushock).

(* the covariance matrices supplied for a period are symmetric *)
Definition ok_period p : Prop := is_sym (u_cov (p_us p)) /\ is_sym (p_cov_w p).

Definition v_term p : 'cV[F]_n := if p_v p is Some v then v else 0.

Lemma P_cov_u_PtE us : P_cov_u_Pt us = P_cov_u us *m (P_cov_u us)^T *m 0 + P_cov_u_Pt us.
Proof. by rewrite mulmx0 add0r. Qed.

Lemma P_cov_u_Pt_sym us : is_sym (u_cov us) -> is_sym (P_cov_u_Pt us).
Proof. by case: us => [nu P c u0|c u0] /= sc //; apply: sym_congr. Qed.

(* P (u0 + (P cov_u)' r) = P u0 + (P cov_u P') r *)
Lemma P_times_smooth us (r : 'cV[F]_n) : is_sym (u_cov us) ->
  P_times us (u_med us + (P_cov_u us)^T *m r) = P_u0 us + P_cov_u_Pt us *m r.
Proof.
case: us => [nu P c u0|c u0] /=; rewrite /is_sym /P_u0 /= => sc.
  by rewrite mulmxDr trmx_mul sc !mulmxA.
by rewrite sc.
Qed.

Lemma P_times_sub us (u u' : 'cV[F]_(udim us)) : P_times us (u - u') = P_times us u - P_times us u'.
Proof. by case: us u u' => [nu P c u0|c u0] u u' //=; rewrite mulmxBr. Qed.

Lemma mx0col k (A B : 'M[F]_(k, 0)) : A = B.
Proof. by rewrite [A]thinmx0 [B]thinmx0. Qed.

(* What one forward step computes, as equations between MathComp matrices.  Everything else is
   proved from this specification for an abstract record [f] (so that no proof depends on the
   order of operations inside kf_step).  step_eqs (KalmanStepEqs.v) is kf_step verbatim, symmetrisations
   included: it is what one shows of a record to identify it with a kf_step result (step_eqs_inj). *)
Record step_spec a Q p (f : frec p) : Prop := StepSpec {
  sp_Q0 : f_Q0 f = p_T p *m Q *m (p_T p)^T + P_cov_u_Pt (p_us p);
  sp_Q0s : is_sym (f_Q0 f);
  sp_a0 : f_a0 f = p_T p *m a + p_K p + P_u0 (p_us p) + v_term p;
  sp_y0 : f_y0 f = p_Z p *m f_a0 f + p_D p + p_H p *m p_w0 p;
  sp_F : f_F f = p_Z p *m f_Q0 f *m (p_Z p)^T + p_H p *m p_cov_w p *m (p_H p)^T;
  sp_Fi : f_Fi f = invmx (f_F f);
  sp_Fis : is_sym (f_Fi f);
  sp_Zt_Fi : f_Zt_Fi f = (p_Z p)^T *m f_Fi f;
  sp_G : f_G f = f_Q0 f *m ((p_Z p)^T *m f_Fi f);
  sp_Q1 : f_Q1 f = f_Q0 f - f_G f *m p_Z p *m f_Q0 f;
  sp_Q1s : is_sym (f_Q1 f);
  sp_pe : f_pe f = p_y p - f_y0 f;
  sp_a1 : f_a1 f = f_a0 f + f_G f *m f_pe f;
  sp_P_cov_u : f_P_cov_u f = P_cov_u (p_us p);
  sp_H_cov_w : f_H_cov_w f = p_H p *m p_cov_w p
}.

Lemma sp_Gt a Q p (f : frec p) : step_spec a Q f -> (f_G f)^T = f_Fi f *m p_Z p *m f_Q0 f.
Proof. by move=> sp; rewrite (sp_G sp) !trmx_mul trmxK (sp_Q0s sp) (sp_Fis sp). Qed.

Lemma Q1_core k (Q0 : 'M[F]_n) (Z : 'M[F]_(k, n)) (Fi : 'M[F]_k) G :
  is_sym Q0 -> is_sym Fi -> G = Q0 *m (Z^T *m Fi) -> is_sym (Q0 - G *m Z *m Q0).
Proof.
move=> sQ sF ->; apply: sym_sub => //.
by rewrite /is_sym !trmx_mul trmxK sQ sF !mulmxA.
Qed.

(* kf_step passes Q0, F, F^-1 and Q1 through symmetrize, F and F^-1 only in a period with observations;
   on symmetric arguments nothing changes *)
Lemma symmetrize_if k (X : 'M[F]_k) : is_sym X -> symz (if Nat.ltb 0 k then X else 0) = X.
Proof. by rewrite if_pos_rows; exact: symmetrize_id. Qed.

Local Arguments symmetrize : simpl never.

Lemma step_eqs_spec a Q p (f : frec p) :
  is_sym Q -> ok_period p -> step_eqs M a Q f -> step_spec a Q f.
Proof.
move=> sQ [scu scw] [/= EQ0 EF EFi Ea0 Ey0 EZF EG EQ1 Epe Ea1 EP EH].
have sQ0 : is_sym (f_Q0 f) by rewrite EQ0; exact: symmetrize_sym.
have sFi : is_sym (f_Fi f) by rewrite EFi; exact: symmetrize_sym.
rewrite EZF in EG.
split=> //.
- by rewrite EQ0 symmetrize_id //; apply: sym_add; [exact: sym_congr | exact: P_cov_u_Pt_sym].
- by rewrite Ea0 /v_term; case: (p_v p) => [v|] //; rewrite addr0.
- by rewrite EF symmetrize_if //; apply: sym_add; exact: sym_congr.
- by rewrite EFi symmetrize_if //; apply: sym_inv; rewrite EF; exact: symmetrize_sym.
- by rewrite EQ1 symmetrize_id //; exact: Q1_core EG.
- by rewrite EQ1; exact: symmetrize_sym.
Qed.

Lemma kf_step_spec a Q p : is_sym Q -> ok_period p -> step_spec a Q (kstep a Q p).
Proof. by move=> sQ ok; apply: step_eqs_spec sQ ok _; exact: kf_step_eqs. Qed.

Notation fper := (fper M n nw).

Fixpoint all_ok (ps : seq period) : Prop :=
  if ps is p :: ps' then ok_period p /\ all_ok ps' else True.

(* every period with observations has an invertible prediction-error covariance *)
Fixpoint all_unit (fs : seq fper) : Prop :=
  if fs is x :: fs' then f_F (ff x) \in unitmx /\ all_unit fs' else True.

Local Opaque kf_step.

Lemma krun_cons a Q p ps :
  krun a Q (p :: ps) = mkFper p (kstep a Q p) :: krun (f_a1 (kstep a Q p)) (f_Q1 (kstep a Q p)) ps.
Proof. by []. Qed.

(* induction over a run: in the step case the period's record is any record that meets step_spec *)
Lemma krun_ind (P : 'cV[F]_n -> 'M[F]_n -> seq fper -> Prop) :
  (forall a Q, P a Q [::]) ->
  (forall a Q p (f : frec p) fs, is_sym Q -> ok_period p -> step_spec a Q f ->
     P (f_a1 f) (f_Q1 f) fs -> P a Q (mkFper p f :: fs)) ->
  forall a Q ps, is_sym Q -> all_ok ps -> P a Q (krun a Q ps).
Proof.
move=> P0 PS a Q ps; elim: ps a Q => [|p ps IH] a Q sQ; first by move=> _; exact: P0.
case=> okp okps; rewrite krun_cons; have sp := kf_step_spec a sQ okp.
exact: PS sQ okp sp (IH _ _ (sp_Q1s sp) okps).
Qed.

(* each period's record is the forward step from the previous period's updated moments *)
Fixpoint step_chain a Q (fs : seq fper) : Prop :=
  if fs is x :: fs' then step_spec a Q (ff x) /\ step_chain (f_a1 (ff x)) (f_Q1 (ff x)) fs' else True.

Lemma krun_chain a Q ps : is_sym Q -> all_ok ps -> step_chain a Q (krun a Q ps).
Proof. by apply: krun_ind. Qed.

(* C03: one step = exact Gaussian conditioning *)

(* Prediction: the moments of alpha_t = T alpha_{t-1} + K + P u_t + v given alpha_{t-1} ~ (a, Q),
   u_t ~ (u0, cov_u) independent.  Joint law of (alpha_t, y_t), y_t = Z alpha_t + D + H w_t with
   w_t ~ (w0, cov_w) independent: means (a0, y0), covariances Q0, Q0 Z', F = Z Q0 Z' + H cov_w H'.
   Update: (a1, Q1) are the conditional mean and covariance of alpha_t given y_t. *)
Theorem step_is_conditioning a Q p (f : frec p) : step_spec a Q f ->
  [/\ f_a0 f = p_T p *m a + p_K p + P_u0 (p_us p) + v_term p,
      f_Q0 f = p_T p *m Q *m (p_T p)^T + P_cov_u_Pt (p_us p),
      f_y0 f = p_Z p *m f_a0 f + p_D p + p_H p *m p_w0 p /\
      f_F f = p_Z p *m f_Q0 f *m (p_Z p)^T + p_H p *m p_cov_w p *m (p_H p)^T,
      f_a1 f = cond_mean (f_a0 f) (f_y0 f) (f_Q0 f *m (p_Z p)^T) (f_F f) (p_y p) &
      f_Q1 f = cond_cov (f_Q0 f) (f_Q0 f *m (p_Z p)^T) (f_F f)].
Proof.
move=> sp; split; [exact: sp_a0 sp | exact: sp_Q0 sp | by split; [exact: sp_y0 sp | exact: sp_F sp] | |].
- by rewrite /cond_mean (sp_a1 sp) (sp_G sp) (sp_pe sp) -(sp_Fi sp) !mulmxA.
- by rewrite /cond_cov (sp_Q1 sp) (sp_G sp) -(sp_Fi sp) trmx_mul trmxK (sp_Q0s sp) !mulmxA.
Qed.

(* P cov_u P' is the covariance of the shock term P u (block form of the prediction covariance) *)
Lemma predict_cov_block nu (T : 'M[F]_n) (P : 'M[F]_(n, nu)) (Q : 'M[F]_n) (C : 'M[F]_nu) :
  row_mx T P *m block_mx Q 0 0 C *m (row_mx T P)^T = T *m Q *m T^T + P *m C *m P^T.
Proof. by rewrite mul_row_block !mulmx0 addr0 add0r tr_row_mx mul_row_col. Qed.

Hypothesis flogM : forall x y : F, x != 0 -> y != 0 -> flog (x * y) = flog x + flog y.

Lemma flog1 : flog 1 = 0.
Proof.
have E := flogM (oner_neq0 F) (oner_neq0 F); rewrite mulr1 in E.
by apply: (addrI (flog 1)); rewrite addr0 -E.
Qed.

Lemma flogV x : x != 0 -> flog x^-1 = - flog x.
Proof.
move=> nz; have E := flogM nz (invr_neq0 nz); rewrite mulfV // flog1 in E.
by apply: (addrI (flog x)); rewrite -E subrr.
Qed.

(* log det F and pe' F^-1 pe of a period, as field elements *)
Definition ld (x : fper) : F := log_det_F x.
Definition qf (x : fper) : F := pe_Fi_pe x.

Lemma foldl_addE A (g : A -> F) (l : seq A) (z : F) :
  List.fold_left +%R (List.map g l) z = z + \sum_(x <- l) g x.
Proof. by elim: l z => [|y l IH] z /=; rewrite ?big_nil ?addr0 // big_cons IH addrA. Qed.

Lemma sum_scE A (g : A -> F) (l : seq A) : sum_sc M (List.map g l) = \sum_(x <- l) g x.
Proof. by rewrite /sum_sc foldl_addE add0r. Qed.

Lemma sum_lgE A (g : A -> F) (l : seq A) : sum_lg M (List.map g l) = \sum_(x <- l) g x.
Proof. by rewrite /sum_lg foldl_addE add0r. Qed.

Lemma sum_natE A (g : A -> nat) (l : seq A) : sum_nat (List.map g l) = (\sum_(x <- l) g x)%N.
Proof.
have E z : List.fold_left Nat.add (List.map g l) z = (z + \sum_(x <- l) g x)%N.
  by elim: l z => [|y l IH] z /=; rewrite ?big_nil ?addn0 // big_cons IH plusE addnA.
exact: E.
Qed.

Lemma ld_empty (x : fper) : num_obs x = 0%N -> ld x = 0.
Proof. by move=> E; rewrite /ld /log_det_F /det_Fi /= det_dim0 // flog1 mulr0. Qed.

Lemma qf_empty (x : fper) : num_obs x = 0%N -> qf x = 0.
Proof. by move=> E; rewrite /qf /pe_Fi_pe /= mulmx_dim0 // mxE. Qed.

(* a contribution in closed form (for a period without observations every term vanishes) *)
Lemma contributionE vs (x : fper) :
  contribution vs x
  = 2%:R^-1 * (ld x + (num_obs x)%:R * flog vs + qf x / vs + (num_obs x)%:R * flog2pi).
Proof.
rewrite /contribution eqb0; case: eqP => [E|_]; last by rewrite /= div1r.
by rewrite ld_empty // qf_empty // E !mul0r !addr0 mulr0.
Qed.

Definition N_of (fs : seq fper) : nat := (\sum_(x <- fs) num_obs x)%N.
Definition LD_of (fs : seq fper) : F := \sum_(x <- fs) ld x.
Definition QF_of (fs : seq fper) : F := \sum_(x <- fs) qf x.

Lemma likelihood_sums (fs : seq fper) :
  [/\ sum_nat (List.map num_obs fs) = N_of fs,
      sum_lg M (List.map log_det_F fs) = LD_of fs &
      sum_sc M (List.map pe_Fi_pe fs) = QF_of fs].
Proof. by rewrite sum_natE sum_lgE sum_scE. Qed.

Lemma QF_empty (fs : seq fper) : N_of fs = 0%N -> QF_of fs = 0.
Proof.
rewrite /N_of /QF_of; elim: fs => [|x fs IH]; first by rewrite !big_nil.
rewrite !big_cons => /eqP; rewrite addn_eq0 => /andP [/eqP Ex /eqP Efs].
by rewrite (qf_empty Ex) IH // add0r.
Qed.

Lemma var_scale_false (fs : seq fper) : l_var_scale (likelihood false fs) = 1.
Proof. by []. Qed.

(* the prediction-error decomposition in closed form, and the concentrated likelihood *)
Theorem likelihood_closed_form (fs : seq fper) :
  l_nll (likelihood false fs) = 2%:R^-1 * ((N_of fs)%:R * flog2pi + LD_of fs + QF_of fs).
Proof. by have [EN EL EQ] := likelihood_sums fs; rewrite /likelihood EN EL EQ /= div1r. Qed.

Lemma nll_true (fs : seq fper) : N_of fs != 0%N ->
  let vs := QF_of fs / (N_of fs)%:R in
  l_var_scale (likelihood true fs) = vs /\
  l_nll (likelihood true fs)
    = 2%:R^-1 * ((N_of fs)%:R * flog2pi + (LD_of fs + (N_of fs)%:R * flog vs) + QF_of fs / vs).
Proof.
move=> Nnz vs; have [EN EL EQ] := likelihood_sums fs.
by rewrite /likelihood EN EL EQ /= eqb0 (negbTE Nnz) /= div1r.
Qed.

(* a data set without any observation: nothing to rescale *)
Theorem rescaled_likelihood_no_obs (fs : seq fper) :
  N_of fs = 0%N ->
  l_var_scale (likelihood true fs) = 1 /\ l_nll (likelihood true fs) = 2%:R^-1 * LD_of fs.
Proof.
move=> N0; have [EN EL EQ] := likelihood_sums fs.
by rewrite /likelihood EN EL EQ N0 /= div1r mul0r add0r addr0.
Qed.

Lemma sum_contributions vs (fs : seq fper) :
  sum_lg M (contributions vs fs)
  = 2%:R^-1 * (LD_of fs + (N_of fs)%:R * flog vs + QF_of fs / vs + (N_of fs)%:R * flog2pi).
Proof.
rewrite /contributions sum_lgE (eq_bigr _ (fun x _ => contributionE vs x)) -mulr_sumr !big_split /= -!mulr_suml.
by rewrite /N_of /LD_of /QF_of natr_sum.
Qed.

(* C03: the per-period contributions sum to the total, with and without variance rescaling *)
Theorem contributions_sum (b : bool) (fs : seq fper) :
  sum_lg M (contributions (l_var_scale (likelihood b fs)) fs) = l_nll (likelihood b fs).
Proof.
case: b; last first.
  rewrite var_scale_false likelihood_closed_form sum_contributions flog1 mulr0 divr1 addr0.
  by congr (_ * _); rewrite addrC addrA.
case: (eqVneq (N_of fs) 0%N) => [N0|Nnz].
  have [-> ->] := rescaled_likelihood_no_obs N0.
  by rewrite sum_contributions N0 flog1 !mul0r divr1 !addr0 (QF_empty N0) addr0.
by have [-> ->] := nll_true Nnz; rewrite sum_contributions; congr (_ * _); rewrite addrC addrA.
Qed.

(* so the plain likelihood is the sum of the contributions at unit variance scale *)
Lemma nll_is_sum (fs : seq fper) : l_nll (likelihood false fs) = \sum_(x <- fs) @contribution M n nw 1 x.
Proof. by rewrite -(contributions_sum false) var_scale_false /contributions sum_lgE. Qed.

(* C03: each contribution is the negative log density of the period's observations under the
   predictive Gaussian N(y0_t, F_t) *)
Theorem contribution_is_nll a Q p (f : frec p) : step_spec a Q f -> f_F f \in unitmx ->
  @contribution M n nw 1 (mkFper p f) = nll_gauss flog flog2pi (f_y0 f) (f_F f) (p_y p).
Proof.
move=> sp uF; rewrite contributionE flog1 mulr0 addr0 divr1.
rewrite /nll_gauss /ld /qf /log_det_F /pe_Fi_pe /det_Fi /num_obs /=.
rewrite (sp_Fi sp) det_inv flogV ?unitmx_det //.
rewrite mulN1r opprK /maha -(sp_pe sp).
by rewrite [X in _ * X]addrC addrA.
Qed.

(* along a run: in every period the update is the Gaussian conditioning of the prediction on that
   period's observations *)
Fixpoint cond_chain a Q (fs : seq fper) : Prop :=
  if fs is x :: fs' then
    let p := fp x in let f := ff x in
    [/\ f_a0 f = p_T p *m a + p_K p + P_u0 (p_us p) + v_term p,
        f_Q0 f = p_T p *m Q *m (p_T p)^T + P_cov_u_Pt (p_us p),
        f_a1 f = cond_mean (f_a0 f) (p_Z p *m f_a0 f + p_D p + p_H p *m p_w0 p) (f_Q0 f *m (p_Z p)^T)
                           (p_Z p *m f_Q0 f *m (p_Z p)^T + p_H p *m p_cov_w p *m (p_H p)^T) (p_y p) &
        f_Q1 f = cond_cov (f_Q0 f) (f_Q0 f *m (p_Z p)^T)
                          (p_Z p *m f_Q0 f *m (p_Z p)^T + p_H p *m p_cov_w p *m (p_H p)^T)]
    /\ cond_chain (f_a1 f) (f_Q1 f) fs'
  else True.

(* C03: variance rescaling = the same model with every covariance multiplied by the scale *)
Definition scale_us (c : F) us : ushock :=
  match us with
  | UP nu P cv u0 => @UP M n nu P (c *: cv) u0
  | UNone cv u0 => @UNone M n (c *: cv) u0
  end.
Definition scale_period (c : F) p : period :=
  @mkPeriod M n nw (p_ny p) (p_T p) (p_K p) (scale_us c (p_us p)) (p_v p) (p_Z p) (p_H p) (p_D p)
            (c *: p_cov_w p) (p_w0 p) (p_y p).

Lemma scale_P_u0 c us : P_u0 (scale_us c us) = P_u0 us.
Proof. by case: us. Qed.
Lemma scale_P_cov_u_Pt c us : P_cov_u_Pt (scale_us c us) = c *: P_cov_u_Pt us.
Proof. by case: us => [nu P cv u0|cv u0] //=; rewrite -scalemxAr -scalemxAl. Qed.
Lemma scale_ok c p : ok_period p -> ok_period (scale_period c p).
Proof.
case=> su sw; split=> /=; last exact: sym_scale.
by case: (p_us p) su => [nu P cv u0|cv u0] /=; exact: sym_scale.
Qed.

(* what the two runs share / how they differ, period by period *)
Record scaled_fields (c : F) p (f : frec p) (f' : frec (scale_period c p)) : Prop := ScaledFields {
  sc_a0 : f_a0 f' = f_a0 f;
  sc_a1 : f_a1 f' = f_a1 f;
  sc_pe : f_pe f' = f_pe f;
  sc_y0 : f_y0 f' = f_y0 f;
  sc_Q0 : f_Q0 f' = c *: f_Q0 f;
  sc_Q1 : f_Q1 f' = c *: f_Q1 f;
  sc_F : f_F f' = c *: f_F f;
  sc_Fi : f_Fi f' = c^-1 *: f_Fi f;
  sc_G : f_G f' = f_G f
}.

Lemma scale_step c a Q p (f : frec p) (f' : frec (scale_period c p)) :
  c != 0 -> step_spec a Q f -> step_spec a (c *: Q) f' -> f_F f \in unitmx -> @scaled_fields c p f f'.
Proof.
move=> c0 sp sp' uF.
have E0 : f_a0 f' = f_a0 f by rewrite (sp_a0 sp') (sp_a0 sp) /= scale_P_u0.
have EQ0 : f_Q0 f' = c *: f_Q0 f.
  by rewrite (sp_Q0 sp') (sp_Q0 sp) /= scale_P_cov_u_Pt -scalemxAr -scalemxAl scalerDr.
have Ey : f_y0 f' = f_y0 f by rewrite (sp_y0 sp') (sp_y0 sp) /= E0.
have EF : f_F f' = c *: f_F f.
  by rewrite (sp_F sp') (sp_F sp) /= EQ0 -!scalemxAr -!scalemxAl scalerDr.
have EFi : f_Fi f' = c^-1 *: f_Fi f.
  by rewrite (sp_Fi sp') (sp_Fi sp) EF invmxZ // unitmxZ // unitfE.
have EG : f_G f' = f_G f.
  by rewrite (sp_G sp') (sp_G sp) /= EQ0 EFi -!scalemxAr -!scalemxAl scalerA mulVf // scale1r.
have Epe : f_pe f' = f_pe f by rewrite (sp_pe sp') (sp_pe sp) /= Ey.
split=> //.
- by rewrite (sp_a1 sp') (sp_a1 sp) E0 EG Epe.
- by rewrite (sp_Q1 sp') (sp_Q1 sp) /= EQ0 EG -scalemxAr scalerBr.
Qed.

Lemma flogX x k : x != 0 -> flog (x ^+ k) = k%:R * flog x.
Proof.
move=> x0; elim: k => [|k IH]; first by rewrite expr0 flog1 mul0r.
by rewrite exprS flogM ?expf_neq0 // IH -add1n natrD mulrDl mul1r.
Qed.

(* the likelihood pieces of a period of the rescaled model *)
Lemma scaled_pieces c a Q p (f : frec p) (f' : frec (scale_period c p)) :
  c != 0 -> step_spec a Q f -> f_F f \in unitmx -> @scaled_fields c p f f' ->
  [/\ num_obs (mkFper _ f') = num_obs (mkFper p f),
      qf (mkFper _ f') = qf (mkFper p f) / c &
      ld (mkFper _ f') = ld (mkFper p f) + (p_ny p)%:R * flog c].
Proof.
move=> c0 sp uF sf; split=> //.
- by rewrite /qf /pe_Fi_pe /= (sc_pe sf) (sc_Fi sf) -scalemxAr -scalemxAl mxE mulrC.
- have dFi : \det (f_Fi f) != 0 by rewrite (sp_Fi sp) det_inv invr_eq0 unitmx_det.
  rewrite /ld /log_det_F /det_Fi /= (sc_Fi sf) detZ flogM ?expf_neq0 ?invr_eq0 //.
  rewrite flogX ?invr_eq0 // flogV //.
  by rewrite mulrDr mulrN !mulN1r opprK addrC.
Qed.

Definition QFs (fs : seq fper) := QF_of fs.

(* whole runs of the original and of the rescaled model, related period by period *)
Fixpoint scaled_runs (c : F) (fs fs' : seq fper) : Prop :=
  match fs, fs' with
  | [::], [::] => True
  | x :: r, x' :: r' =>
      (exists (f' : frec (scale_period c (fp x))),
          x' = mkFper (scale_period c (fp x)) f' /\ @scaled_fields c (fp x) (ff x) f')
      /\ scaled_runs c r r'
  | _, _ => False
  end.

Lemma krun_scaled c a Q ps : c != 0 -> is_sym Q -> all_ok ps -> all_unit (krun a Q ps) ->
  scaled_runs c (krun a Q ps) (krun a (c *: Q) [seq scale_period c p | p <- ps]).
Proof.
move=> c0; elim: ps a Q => [|p ps IH] a Q sQ; first by [].
case=> okp okps; rewrite map_cons !krun_cons; case=> uF uFs.
have sp := kf_step_spec a sQ okp.
have scQ : is_sym (c *: Q) := sym_scale c sQ.
have sp' := kf_step_spec a scQ (scale_ok c okp).
have sf := scale_step c0 sp sp' uF.
split; first by exists (kstep a (c *: Q) (scale_period c p)).
by rewrite (sc_a1 sf) (sc_Q1 sf); apply: IH => //; exact: sp_Q1s sp.
Qed.

Lemma scaled_sums c (fs fs' : seq fper) a Q :
  c != 0 -> step_chain a Q fs -> all_unit fs -> scaled_runs c fs fs' ->
  [/\ N_of fs' = N_of fs, QF_of fs' = QF_of fs / c & LD_of fs' = LD_of fs + (N_of fs)%:R * flog c].
Proof.
move=> c0; rewrite /N_of /QF_of /LD_of.
elim: fs fs' a Q => [|[p f] fs IH] [|x' fs'] a Q //=; first by rewrite !big_nil !mul0r addr0.
case=> sp ch [uF uFs] [[f' [-> sf]] sr].
have [E1 E2 E3] := IH _ _ _ ch uFs sr.
have [P1 P2 P3] := scaled_pieces c0 sp uF sf.
by rewrite !big_cons E1 E2 E3 P1 P2 P3 natrD; split=> //; rewrite mulrDl // addrACA.
Qed.

End KalmanProofs.
