(* Source variants that differ only in style compile to the same model (property C04):
   {k} vs [k], ^ vs **, = vs :=, keyword spellings, <x> vs {{x}}, ?(c)|upper vs ?{c}. *)
From Coq Require Import ZArith List String Bool.
From Verif Require Import lib.LangSyntax gen.PseudoGen model.Lang proofs.LangProofs.
Import ListNotations.
Open Scope Z_scope.

#[local] Opaque big_fuel.

Definition erase_piece (p : piece) : piece :=
  match p with
  | Ctl c VUpperPipe => Ctl c VUpper
  | Ctl c VLowerPipe => Ctl c VLower
  | _ => p
  end.
Definition erase_tname (n : tname) : tname := map erase_piece n.

Fixpoint erase_cond (cd : cond) : cond :=
  match cd with
  | CdStrEq a b ng => CdStrEq (erase_tname a) b ng
  | CdNot a => CdNot (erase_cond a)
  | CdAnd a b => CdAnd (erase_cond a) (erase_cond b)
  | CdOr a b => CdOr (erase_cond a) (erase_cond b)
  | _ => cd
  end.

Definition erase_shift (k : shiftspec) : shiftspec :=
  match k with ShZ z _ => ShZ z Square | ShCtx ie => ShCtx ie end.

Fixpoint erase_expr (e : expr) : expr :=
  match e with
  | EName n k => EName (erase_tname n) (erase_shift k)
  | ENum m d => ENum m d
  | ECtx ie _ => ECtx ie false
  | EBin o _ a b => EBin o StarStar (erase_expr a) (erase_expr b)
  | ENeg a => ENeg (erase_expr a)
  | ECall f args => ECall f (map erase_expr args)
  | EParen a => EParen (erase_expr a)
  | EPseudo f a k => EPseudo f (erase_expr a) k
  | ESubs s => ESubs s
  end.

Definition erase_tokitem (ti : tokitem) : tokitem :=
  match ti with TokName n => TokName (erase_tname n) | TokCtx v => TokCtx v end.

Definition erase_directive {T U} (g : T -> U) (d : directive T) : directive U :=
  match d with
  | DText x => DText (g x)
  | DFor c toks => DFor c (map erase_tokitem toks)
  | DIf cd => DIf (erase_cond cd)
  | DElse => DElse
  | DEnd => DEnd
  end.

Definition erase_tail (t : tail) : tail := (fst t, erase_expr (snd t)).
Definition erase_side (s : eqside) : eqside :=
  mkSide (erase_expr (s_lhs s)) false (erase_expr (s_rhs s)) (map (erase_directive erase_tail) (s_tails s)).

Definition erase_kw (b : blockkw) : blockkw :=
  match b with
  | BQty k _ => BQty k 0
  | BLog ab _ => BLog ab 0
  | BEqn k _ => BEqn k 0
  | BSubs _ => BSubs 0
  end.

Definition erase_item (it : item) : item :=
  match it with
  | IKeyword b => IKeyword (erase_kw b)
  | IQty d n tg => IQty (erase_tname d) (erase_tname n) tg
  | ILog n => ILog (erase_tname n)
  | ILogList tg => ILogList tg
  | IEqn d dy st => IEqn (erase_tname d) (erase_side dy) (match st with Some s => Some (erase_side s) | None => None end)
  | ISubs nm _ b => ISubs nm false (erase_expr b)
  end.

Definition erase_source (src : source) : source := map (erase_directive erase_item) src.

Section ExprInd.
Variable P : expr -> Prop.
Hypothesis Hname : forall n k, P (EName n k).
Hypothesis Hnum : forall m d, P (ENum m d).
Hypothesis Hctx : forall ie j, P (ECtx ie j).
Hypothesis Hbin : forall o ps a b, P a -> P b -> P (EBin o ps a b).
Hypothesis Hneg : forall a, P a -> P (ENeg a).
Hypothesis Hcall : forall f args, Forall P args -> P (ECall f args).
Hypothesis Hparen : forall a, P a -> P (EParen a).
Hypothesis Hpseudo : forall f a k, P a -> P (EPseudo f a k).
Hypothesis Hsubs : forall s, P (ESubs s).
Fixpoint expr_ind' (e : expr) : P e :=
  match e with
  | EName n k => Hname n k
  | ENum m d => Hnum m d
  | ECtx ie j => Hctx ie j
  | EBin o ps a b => Hbin o ps a b (expr_ind' a) (expr_ind' b)
  | ENeg a => Hneg a (expr_ind' a)
  | ECall f args =>
      Hcall f args ((fix go (l : list expr) : Forall P l :=
                       match l with [] => Forall_nil P | x :: r => Forall_cons x (expr_ind' x) (go r) end) args)
  | EParen a => Hparen a (expr_ind' a)
  | EPseudo f a k => Hpseudo f a k (expr_ind' a)
  | ESubs s => Hsubs s
  end.
End ExprInd.

Lemma close_erase n : close_name (erase_tname n) = close_name n.
Proof.
  induction n as [|p r IH]; [reflexivity|].
  destruct p as [s|c v]; simpl.
  - rewrite IH. reflexivity.
  - destruct v; reflexivity.
Qed.

Lemma subst_erase_piece c tok p : subst_piece c tok (erase_piece p) = erase_piece (subst_piece c tok p).
Proof.
  destruct p as [s|c' v]; [reflexivity|].
  destruct v; simpl; destruct (String.eqb c' c); reflexivity.
Qed.

Lemma subst_erase_tname c tok n : subst_tname c tok (erase_tname n) = erase_tname (subst_tname c tok n).
Proof.
  unfold subst_tname, erase_tname. rewrite !map_map. apply map_ext. intros p. apply subst_erase_piece.
Qed.

Lemma subst_erase_cond c tok cd : subst_cond c tok (erase_cond cd) = erase_cond (subst_cond c tok cd).
Proof.
  induction cd; simpl; rewrite ?subst_erase_tname; congruence.
Qed.

Lemma subst_erase_expr c tok e : subst_expr c tok (erase_expr e) = erase_expr (subst_expr c tok e).
Proof.
  induction e using expr_ind'; simpl; try reflexivity.
  - rewrite subst_erase_tname. reflexivity.
  - rewrite IHe1, IHe2. reflexivity.
  - rewrite IHe. reflexivity.
  - f_equal. rewrite !map_map. apply map_ext_Forall. exact H.
  - rewrite IHe. reflexivity.
  - rewrite IHe. reflexivity.
Qed.

Lemma subst_erase_tokitem c tok ti : subst_tokitem c tok (erase_tokitem ti) = erase_tokitem (subst_tokitem c tok ti).
Proof. destruct ti; simpl; [rewrite subst_erase_tname|]; reflexivity. Qed.

Lemma cond_eval_erase cx cd : cond_eval cx (erase_cond cd) = cond_eval cx cd.
Proof.
  induction cd; simpl; rewrite ?close_erase, ?IHcd, ?IHcd1, ?IHcd2; reflexivity.
Qed.

Lemma tokens_of_erase cx toks : tokens_of cx (map erase_tokitem toks) = tokens_of cx toks.
Proof.
  induction toks as [|ti r IH]; [reflexivity|].
  destruct ti; simpl; rewrite IH; [rewrite close_erase|]; reflexivity.
Qed.

Lemma elab_erase cx subs e : elab cx subs (erase_expr e) = elab cx subs e.
Proof.
  induction e using expr_ind'; simpl; try reflexivity.
  - rewrite close_erase. destruct k; reflexivity.
  - rewrite IHe1, IHe2. reflexivity.
  - rewrite IHe. reflexivity.
  - match goal with |- match ?G (map erase_expr args) with _ => _ end = match ?G' args with _ => _ end =>
      assert (E : G (map erase_expr args) = G' args) end.
    { induction H as [|x l Hx Hl IH]; simpl; [reflexivity|]. rewrite Hx, IH. reflexivity. }
    rewrite E. reflexivity.
  - rewrite IHe. reflexivity.
  - rewrite IHe. reflexivity.
Qed.

(* _resolve_sequence commutes with a map of the payload *)
Definition rmap {T U} (g : T -> U) (r : rres T) : rres U :=
  match r with ROk l => ROk (map g l) | RErr => RErr | RFuel => RFuel end.

Section ResolveMap.
Context {T U : Type}.
Variable g : T -> U.
Variable subT : string -> string -> T -> T.
Variable subU : string -> string -> U -> U.
Hypothesis Hcomm : forall c tok x, subU c tok (g x) = g (subT c tok x).
Variable cx : context.
Variable be : bool.
Notation dm := (erase_directive g).

Lemma level_dm d : level (dm d) = level d.
Proof. destruct d; reflexivity. Qed.

Lemma find_end_from_dm s : forall acc i, find_end_from acc i (map dm s) = find_end_from acc i s.
Proof. induction s as [|d r IH]; intros acc i; simpl; [reflexivity|]. rewrite level_dm, IH. reflexivity. Qed.

Lemma find_else_from_dm s : forall acc i b, find_else_from acc i b (map dm s) = find_else_from acc i b s.
Proof.
  induction s as [|d r IH]; intros acc i b; simpl; [reflexivity|].
  rewrite level_dm, IH. destruct d; reflexivity.
Qed.

Lemma slice_dm a b s : slice a b (map dm s) = map dm (slice a b s).
Proof. unfold slice. rewrite skipn_map, firstn_map. reflexivity. Qed.

Lemma subst_dm c tok d : subst_directive subU c tok (dm d) = dm (subst_directive subT c tok d).
Proof.
  destruct d; simpl; try reflexivity.
  - rewrite Hcomm. reflexivity.
  - f_equal. rewrite !map_map. apply map_ext. intros ti. apply subst_erase_tokitem.
  - rewrite subst_erase_cond. reflexivity.
Qed.

Lemma rmap_rapp (a b : rres T) : rmap g (rapp a b) = rapp (rmap g a) (rmap g b).
Proof. destruct a, b; simpl; try reflexivity. rewrite map_app. reflexivity. Qed.

Lemma resolve_dm : forall fuel s,
  resolve subU cx be fuel (map dm s) = rmap g (resolve subT cx be fuel s).
Proof.
  induction fuel as [|fu IH]; intros s; [reflexivity|].
  destruct s as [|d r]; [reflexivity|].
  destruct d as [x|c toks|cd| |].
  - cbn [map erase_directive resolve]. rewrite IH, rmap_rapp. reflexivity.
  - cbn [map erase_directive resolve].
    change (DFor c (map erase_tokitem toks) :: map dm r) with (map dm (DFor c toks :: r)).
    unfold find_end. rewrite find_end_from_dm, tokens_of_erase.
    destruct (find_end_from 0 0 (DFor c toks :: r)) as [e|]; [|reflexivity].
    destruct (tokens_of cx toks) as [tl|]; [|reflexivity].
    rewrite slice_dm, skipn_map, rmap_rapp, <- !IH. f_equal. f_equal.
    induction tl as [|tok tl IHt]; [reflexivity|]. simpl. rewrite map_app, <- IHt. f_equal.
    rewrite !map_map. apply map_ext. intros d. apply subst_dm.
  - cbn [map erase_directive resolve].
    change (DIf (erase_cond cd) :: map dm r) with (map dm (DIf cd :: r)).
    unfold find_end, find_else. rewrite find_end_from_dm, cond_eval_erase.
    destruct (find_end_from 0 0 (DIf cd :: r)) as [e|]; [|reflexivity].
    destruct (cond_eval cx cd) as [b|]; [|reflexivity].
    rewrite find_else_from_dm.
    destruct b; rewrite slice_dm, skipn_map, rmap_rapp, <- !IH; reflexivity.
  - reflexivity.
  - reflexivity.
Qed.
End ResolveMap.

Lemma subst_erase_tail c tok t : subst_tail c tok (erase_tail t) = erase_tail (subst_tail c tok t).
Proof. destruct t as [b e]. unfold subst_tail, erase_tail. simpl. rewrite subst_erase_expr. reflexivity. Qed.

Lemma subst_erase_side c tok s : subst_side c tok (erase_side s) = erase_side (subst_side c tok s).
Proof.
  unfold subst_side, erase_side. simpl. rewrite !subst_erase_expr. f_equal.
  rewrite !map_map. apply map_ext. intros d.
  apply (subst_dm erase_tail subst_tail subst_tail). intros; apply subst_erase_tail.
Qed.

Lemma subst_erase_item c tok it : subst_item c tok (erase_item it) = erase_item (subst_item c tok it).
Proof.
  destruct it; simpl; try reflexivity.
  - rewrite !subst_erase_tname. reflexivity.
  - rewrite subst_erase_tname. reflexivity.
  - rewrite subst_erase_tname, subst_erase_side. destruct steady; [rewrite subst_erase_side|]; reflexivity.
Qed.

Lemma map_opt_map_ext {A B C} (f : B -> option C) (h : A -> B) (k : A -> option C) l :
  (forall x, f (h x) = k x) -> map_opt f (map h l) = map_opt k l.
Proof. intros H. induction l; simpl; [reflexivity|]. rewrite IHl, H. reflexivity. Qed.

Lemma side_written_erase cx subs be s : side_written cx subs be (erase_side s) = side_written cx subs be s.
Proof.
  unfold side_written, erase_side. simpl.
  rewrite (resolve_dm erase_tail subst_tail subst_tail (fun c tok x => subst_erase_tail c tok x)).
  destruct (resolve subst_tail cx be big_fuel (s_tails s)) as [tl| |]; simpl; try reflexivity.
  rewrite !elab_erase, (map_opt_map_ext _ _ (elab_tail cx subs)); [reflexivity|].
  intros t. unfold elab_tail, erase_tail. simpl. rewrite elab_erase. reflexivity.
Qed.

Lemma compile_side_erase cx subs be names shocks s :
  compile_side cx subs be names shocks (erase_side s) = compile_side cx subs be names shocks s.
Proof. unfold compile_side. rewrite side_written_erase. reflexivity. Qed.

Definition erase_eqn (e : eqn) : eqn :=
  mkEqn (e_kind e) (e_descr e) (erase_side (e_dyn e)) (match e_steady e with Some s => Some (erase_side s) | None => None end).

Definition erase_coll (c : collected) : collected :=
  mkColl (c_block c) (c_decls c) (c_log c) (c_allbut c) (map erase_eqn (c_eqns c))
         (map (fun nb : string * expr => (fst nb, erase_expr (snd nb))) (c_subs c)).

Lemma collect1_erase tags st it :
  collect1 tags (option_map erase_coll st) (erase_item it) = option_map erase_coll (collect1 tags st it).
Proof.
  destruct st as [c|]; [|reflexivity].
  destruct it as [b|d n tg|n|tg|d dy sd|nm a b]; simpl.
  - destruct b; reflexivity.
  - destruct (c_block c); try reflexivity. rewrite !close_erase.
    destruct (close_name d); [|reflexivity]. destruct (close_name n); reflexivity.
  - destruct (c_block c); try reflexivity. rewrite close_erase. destruct (close_name n); reflexivity.
  - destruct (c_block c); reflexivity.
  - destruct (c_block c); try reflexivity. rewrite close_erase. destruct (close_name d); [|reflexivity].
    simpl. unfold erase_coll. simpl. rewrite map_app. reflexivity.
  - destruct (c_block c); try reflexivity. simpl. unfold erase_coll. simpl. rewrite map_app. reflexivity.
Qed.

Lemma tags_of_erase items : tags_of (map erase_item items) = tags_of items.
Proof.
  unfold tags_of. induction items as [|it r IH]; [reflexivity|]. simpl. rewrite IH. f_equal.
  destruct it as [b|d n [tg|]|n|tg|d dy sd|nm a b]; simpl; try reflexivity.
  rewrite close_erase. reflexivity.
Qed.

Lemma collect_erase items : collect (map erase_item items) = option_map erase_coll (collect items).
Proof.
  unfold collect. rewrite tags_of_erase. generalize (tags_of items) as tags. intros tags.
  assert (H : forall st, fold_left (collect1 tags) (map erase_item items) (option_map erase_coll st)
                         = option_map erase_coll (fold_left (collect1 tags) items st)).
  { induction items as [|it r IH]; intros st; [reflexivity|]. simpl. rewrite collect1_erase. apply IH. }
  apply (H (Some coll0)).
Qed.

Lemma filter_map_eqn (p : eqn -> bool) l : (forall e, p (erase_eqn e) = p e) ->
  filter p (map erase_eqn l) = map erase_eqn (filter p l).
Proof.
  intros H. induction l as [|e r IH]; [reflexivity|]. simpl. rewrite H. destruct (p e); simpl; rewrite IH; reflexivity.
Qed.

Lemma steady_side_erase e :
  match e_steady (erase_eqn e) with Some s => s | None => e_dyn (erase_eqn e) end
  = erase_side (match e_steady e with Some s => s | None => e_dyn e end).
Proof. simpl. destruct (e_steady e); reflexivity. Qed.

Lemma compile_collected_erase cx be c : compile_collected cx be (erase_coll c) = compile_collected cx be c.
Proof.
  unfold compile_collected. cbn [erase_coll c_allbut c_decls c_log c_eqns c_subs].
  destruct (allbut_flag (c_allbut c)) as [ab|]; [|reflexivity].
  rewrite !filter_map_eqn by (intros; reflexivity). rewrite <- map_app, !map_length.
  repeat match goal with |- (if ?b then _ else _) = (if ?b then _ else _) => destruct b; [reflexivity|] end.
  erewrite map_opt_map_ext by (intros nb; simpl; rewrite elab_erase; reflexivity).
  destruct (map_opt _ (c_subs c)) as [subs|]; [|reflexivity].
  erewrite !map_opt_map_ext
    by (intros e; rewrite ?steady_side_erase; cbn [erase_eqn e_kind e_dyn]; rewrite compile_side_erase; reflexivity).
  rewrite map_map. reflexivity.
Qed.

(* the compiled model does not depend on the style of the source *)
Theorem variants_equal_styles cx be fuel (src : source) :
  compile cx be fuel (erase_source src) = compile cx be fuel src.
Proof.
  unfold compile, erase_source.
  rewrite (resolve_dm erase_item subst_item subst_item (fun c tok x => subst_erase_item c tok x)).
  destruct (resolve subst_item cx be fuel src) as [items| |]; simpl; try reflexivity.
  rewrite collect_erase. destruct (collect items) as [c|]; simpl; [|reflexivity].
  apply compile_collected_erase.
Qed.

Lemma in_of_kind d k l : In d (of_kind k l) <-> In d l /\ d_kind d = k.
Proof. unfold of_kind. rewrite filter_In, kind_eqb_eq. reflexivity. Qed.

Lemma in_by_kind d (order : list qkind) (ds : list decl) :
  In d (flat_map (fun k => of_kind k ds) order) <-> In d ds /\ In (d_kind d) order.
Proof.
  rewrite in_flat_map. split.
  - intros [k [Hk Hd]]. apply in_of_kind in Hd. destruct Hd as [Hd <-]. auto.
  - intros [Hd Hk]. exists (d_kind d). split; [exact Hk|]. apply in_of_kind. auto.
Qed.

(* the quantities made from the shocks of kind K: In among them, spelled out *)
Lemma in_derived decls (mk : decl -> decl) K d : In K entry_order ->
  In d (map mk (of_kind K (flat_map (fun k => of_kind k decls) entry_order)))
  <-> exists s, In s decls /\ d_kind s = K /\ d = mk s.
Proof.
  intros HK. rewrite in_map_iff. split; intros [s H]; exists s.
  - destruct H as [<- H]. apply in_of_kind in H as [H <-]. apply in_by_kind in H. tauto.
  - destruct H as (H & <- & ->). rewrite in_of_kind, in_by_kind. tauto.
Qed.

