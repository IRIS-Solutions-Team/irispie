(* C19: merge with the strategies error / critical (and silent / warning) over ANY list of databoxes, as
   facts about the loop report_run (model/Merge6.v): a duplicate is met iff some key occurs twice among the keys of the
   target and of the merged items; the result when none is met; the state of the target when one is (new keys are
   added up to the end (error) or up to the first duplicate (critical); no existing item is ever changed).  The
   theorems about d_merge and merge_report_state are in props/C19.v. *)
From Coq Require Import String ZArith List Bool.
From Verif Require Import lib.Arith model.Series model.Databox model.Merge6 proofs.DataboxProofs.
Import ListNotations.

Section Merge6P.
Variable A : Arith.
Notation databox := (databox A).
Notation item := (item A).

Lemma dset_fresh (d : databox) k v : dget A d k = None -> dset A d k v = d ++ [(k, v)].
Proof.
  induction d as [|[k0 v0] r IH]; simpl; [reflexivity|].
  destruct (String.eqb k0 k); [discriminate|]. intros H. now rewrite IH.
Qed.

Lemma names_concat (others : list databox) : flat_map (names A) others = map fst (concat others).
Proof. unfold names. rewrite flat_map_concat_map, concat_map. reflexivity. Qed.

(* the loop of d_merge for a reporting strategy is [report_run false] *)
Lemma report_fold r kvs : forall d dup,
  fold_left (merge_step A (MReport r)) kvs (Ok (d, dup))
  = Ok (fst (report_run A false d kvs), dup || snd (report_run A false d kvs)).
Proof.
  induction kvs as [|kv tl IH]; intros d dup; cbn [fold_left report_run].
  - cbn [fst snd]. now rewrite orb_false_r.
  - unfold merge_step at 2. destruct (dget A d (fst kv)).
    + rewrite IH. cbn [fst snd]. now rewrite orb_true_r.
    + rewrite IH. reflexivity.
Qed.

Lemma report_dup_iff c kvs : forall d, ND A d ->
  (snd (report_run A c d kvs) = true <-> ~ NoDup (names A d ++ map fst kvs)).
Proof.
  induction kvs as [|kv tl IH]; intros d Hnd; cbn [report_run map].
  - rewrite app_nil_r. cbn [snd]. split; [discriminate|intros H; contradiction].
  - destruct (dget A d (fst kv)) eqn:E.
    + assert (Hin : In (fst kv) (names A d)) by (eapply dget_Some_In; eauto).
      assert (Hn : ~ NoDup (names A d ++ fst kv :: map fst tl)).
      { intros Hn. apply NoDup_remove_2 in Hn. apply Hn. apply in_or_app. now left. }
      destruct c; cbn [snd]; tauto.
    + rewrite IH by (apply ND_dset; assumption). rewrite names_dset. unfold dhas. rewrite E.
      rewrite <- app_assoc. reflexivity.
Qed.

Lemma report_nodup c kvs : forall d, NoDup (names A d ++ map fst kvs) -> report_run A c d kvs = (d ++ kvs, false).
Proof.
  induction kvs as [|kv tl IH]; intros d H; cbn [report_run].
  - now rewrite app_nil_r.
  - cbn [map] in H.
    assert (E : dget A d (fst kv) = None).
    { apply dget_None. intros Hi. apply NoDup_remove_2 in H. apply H. apply in_or_app. now left. }
    rewrite E. rewrite (dset_fresh _ _ _ E). rewrite IH.
    + rewrite <- app_assoc. destruct kv. reflexivity.
    + unfold names. rewrite map_app. cbn [map app]. now rewrite <- app_assoc.
Qed.

Definition all_keys (db : databox) (others : list databox) : list string := names A db ++ flat_map (names A) others.

(* error / critical: raises iff some key occurs twice; otherwise the target followed by all items of the merged
   databoxes, in their order *)
Theorem merge_error_spec (db : databox) others : ND A db ->
  (NoDup (all_keys db others) -> d_merge A db others (MReport true) = Ok (db ++ concat others)) /\
  (~ NoDup (all_keys db others) -> d_merge A db others (MReport true) = Err 2%nat).
Proof.
  intros Hnd. unfold all_keys, d_merge. rewrite names_concat, report_fold. cbn [orb]. split; intros H.
  - rewrite (report_nodup false _ _ H). reflexivity.
  - apply (report_dup_iff false) in H; [|assumption]. now rewrite H.
Qed.

(* the target after a merge with silent / warning / error, also when error raised: existing keys keep their items,
   a new key holds its FIRST occurrence in the merged databoxes *)
Lemma report_state_get kvs : forall (d : databox) k,
  dget A (fst (report_run A false d kvs)) k = match dget A d k with Some v => Some v | None => dget A kvs k end.
Proof.
  induction kvs as [|[k0 v0] tl IH]; intros d k; cbn [report_run fst snd].
  - cbn [dget]. destruct (dget A d k); reflexivity.
  - cbn [dget]. destruct (dget A d k0) eqn:E.
    + cbn [fst]. rewrite IH. destruct (dget A d k) eqn:Ek; [reflexivity|].
      destruct (String.eqb_spec k0 k) as [->|Hne]; [congruence|reflexivity].
    + rewrite IH, dget_dset. destruct (String.eqb_spec k0 k) as [->|Hne]; [now rewrite E|reflexivity].
Qed.

(* critical: the loop stops at the first duplicate key; the items before it have been added *)
Fixpoint fresh_prefix (seen : list string) (kvs : list (string * item)) : list (string * item) :=
  match kvs with
  | [] => []
  | kv :: r => if smem (fst kv) seen then [] else kv :: fresh_prefix (fst kv :: seen) r
  end.

Lemma report_critical_state kvs : forall (d : databox) seen, (forall x, In x seen <-> In x (names A d)) ->
  fst (report_run A true d kvs) = d ++ fresh_prefix seen kvs.
Proof.
  induction kvs as [|kv tl IH]; intros d seen H; cbn [report_run fresh_prefix].
  - cbn [fst]. now rewrite app_nil_r.
  - destruct (dget A d (fst kv)) eqn:E.
    + assert (Hs : smem (fst kv) seen = true) by (apply smem_In, H; eapply dget_Some_In; eauto).
      rewrite Hs. cbn [fst]. now rewrite app_nil_r.
    + assert (Hs : smem (fst kv) seen = false) by (apply smem_false; intros Hi; apply H in Hi; now apply dget_None in E).
      rewrite Hs. rewrite (dset_fresh _ _ _ E). rewrite (IH _ (fst kv :: seen)).
      * rewrite <- app_assoc. destruct kv. reflexivity.
      * intros x. unfold names. rewrite map_app, in_app_iff. cbn [map In fst]. rewrite H. tauto.
Qed.

Lemma dget_app_some (a b : databox) k v : dget A a k = Some v -> dget A (a ++ b) k = Some v.
Proof.
  induction a as [|[k0 v0] r IH]; cbn [dget app]; [discriminate|].
  destruct (String.eqb k0 k); [trivial|exact IH].
Qed.

End Merge6P.

From Verif Require Import lib.ArithOptZ.
Module Merge6Examples.
Definition sc (z : Z) : Databox.item OZArith := INon (@EScal OZArith (Some z)).
Definition T : Databox.databox OZArith := [("a"%string, sc 1)].
Definition B : Databox.databox OZArith := [("x"%string, sc 2); ("a"%string, sc 3); ("y"%string, sc 4)].
Definition C : Databox.databox OZArith := [("y"%string, sc 5); ("z"%string, sc 6)].
Example error_state : merge_report_state OZArith false T [B; C]
  = ([("a"%string, sc 1); ("x"%string, sc 2); ("y"%string, sc 4); ("z"%string, sc 6)], true).
Proof. reflexivity. Qed.
Example critical_state : merge_report_state OZArith true T [B; C] = ([("a"%string, sc 1); ("x"%string, sc 2)], true).
Proof. reflexivity. Qed.
Example error_raises : d_merge OZArith T [B; C] (MReport true) = Err 2%nat.
Proof. reflexivity. Qed.
Example no_duplicate : NoDup (all_keys OZArith T [C]) /\ d_merge OZArith T [C] (MReport true) = Ok (T ++ C).
Proof. split; [repeat constructor; simpl; intuition discriminate|reflexivity]. Qed.
End Merge6Examples.
