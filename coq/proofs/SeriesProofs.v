(* Refinement lemmas: the Series model behaves as a total map period -> row. *)
From Coq Require Import ZArith List Bool Lia.
From Verif Require Import lib.Arith model.Series.
Import ListNotations.
Open Scope Z_scope.

Lemma fold_left_invariant {S T} (P : S -> Prop) (f : S -> T -> S) l s :
  P s -> (forall s p, In p l -> P s -> P (f s p)) -> P (fold_left f l s).
Proof.
  revert s. induction l as [|p l IH]; intros s Hs Hf; [exact Hs|].
  apply IH; [apply Hf; [now left|exact Hs]|]. intros s' q Hq. apply Hf. now right.
Qed.

(* a property that either argument passes on to f x y is passed on to a fold by the start value or any member *)
Lemma fold_left_absorb {T} (P : T -> Prop) (f : T -> T -> T) :
  (forall x y, P x -> P (f x y)) -> (forall x y, P y -> P (f x y)) ->
  forall l a, P a \/ (exists x, In x l /\ P x) -> P (fold_left f l a).
Proof.
  intros Hl Hr. induction l as [|y l IH]; intros a [H|(x & Hin & H)]; simpl; [exact H|destruct Hin|auto|].
  destruct Hin as [->|Hin]; apply IH; [left; now apply Hr|right; now exists x].
Qed.

Lemma in_combine_map {X Y} (f : X -> Y) l a b : In (a, b) (combine (map f l) l) -> a = f b /\ In b l.
Proof.
  induction l as [|y l IH]; [intros []|]. intros [[= <- <-]|H]; [split; [reflexivity|now left]|].
  destruct (IH H). split; [assumption|now right].
Qed.

Section SeriesProofs.
Variable A : Arith.
Notation V := (car A).
Notation series := (series A).
Hypothesis miss_law : forall x : V, is_miss A x = true -> x = miss A.

Definition rows_ok (nv : nat) (rows : list (list V)) : Prop := Forall (fun r => length r = nv) rows.
Definition WF (s : series) : Prop :=
  rows_ok (s_nv s) (s_data s) /\ (s_start s = None -> s_data s = []).

Lemma all_miss_missrow (r : list V) : all_miss A r = true -> r = missrow A (length r).
Proof.
  induction r as [|x r IH]; simpl; intros H; [reflexivity|].
  apply andb_prop in H as [Hx Hr]. rewrite (miss_law x Hx). unfold missrow. simpl. f_equal. now apply IH.
Qed.

Lemma missrow_length n : length (missrow A n) = n.
Proof. apply repeat_length. Qed.

Lemma nth_missrows (n : nat) (nv : nat) i :
  nth i (repeat (missrow A nv) n) (missrow A nv) = missrow A nv.
Proof. apply nth_repeat. Qed.

Lemma drop_leading_spec nv (rows : list (list V)) :
  rows_ok nv rows ->
  let '(n, rest) := drop_leading A rows in
  rows = repeat (missrow A nv) n ++ rest /\ rows_ok nv rest
  /\ match rest with [] => True | r :: _ => all_miss A r = false end.
Proof.
  induction rows as [|r rows IH]; intros Hok; simpl.
  - repeat split; constructor.
  - pose proof (Forall_inv Hok) as Hr; pose proof (Forall_inv_tail Hok) as Hrows; simpl in Hr.
    destruct (all_miss A r) eqn:E.
    + specialize (IH Hrows). destruct (drop_leading A rows) as [n rest].
      destruct IH as (H1 & H2 & H3). repeat split; auto.
      simpl. rewrite <- H1. f_equal. rewrite (all_miss_missrow r E), Hr. reflexivity.
    + repeat split; auto.
Qed.

Lemma nth_prefix_missrows nv n (rest : list (list V)) i :
  nth i (repeat (missrow A nv) n ++ rest) (missrow A nv)
  = if (i <? n)%nat then missrow A nv else nth (i - n) rest (missrow A nv).
Proof.
  destruct (Nat.ltb_spec i n).
  - rewrite app_nth1 by (rewrite repeat_length; lia). apply nth_repeat.
  - rewrite app_nth2 by (rewrite repeat_length; lia). now rewrite repeat_length.
Qed.

Lemma nth_suffix_missrows nv m (body : list (list V)) i :
  nth i (body ++ repeat (missrow A nv) m) (missrow A nv) = nth i body (missrow A nv).
Proof.
  destruct (Nat.ltb_spec i (length body)).
  - now rewrite app_nth1.
  - rewrite app_nth2 by lia. rewrite nth_repeat. now rewrite nth_overflow.
Qed.

Lemma rows_ok_app nv a b : rows_ok nv (a ++ b) -> rows_ok nv a /\ rows_ok nv b.
Proof. unfold rows_ok. intros H. split; [eapply Forall_app in H; tauto | eapply Forall_app in H; tauto]. Qed.

Lemma rows_ok_map {T} nv (g : T -> list V) l : (forall u, In u l -> length (g u) = nv) -> rows_ok nv (map g l).
Proof. intros H. apply Forall_forall. intros r (u & <- & Hu)%in_map_iff. now apply H. Qed.

(* as many rows as before, of whatever width, keep a series well formed *)
Lemma respan_WF (s : series) nv rows :
  WF s -> length rows = length (s_data s) -> rows_ok nv rows -> WF (mkSeries (s_freq s) (s_start s) nv rows).
Proof. intros [_ H2] Hl Hok. split; simpl; [assumption|]. intros E. rewrite (H2 E) in Hl. now destruct rows. Qed.

Lemma respan_seq_WF (s : series) nv (g : nat -> list V) :
  WF s -> (forall i, length (g i) = nv) -> WF (mkSeries (s_freq s) (s_start s) nv (map g (seq 0 (length (s_data s))))).
Proof.
  intros Hwf Hg. apply respan_WF; [assumption|now rewrite map_length, seq_length|]. apply rows_ok_map. intros i _. apply Hg.
Qed.

Lemma map_rows_WF (s : series) nv (g : list V -> list V) :
  WF s -> (forall r, length r = s_nv s -> length (g r) = nv) ->
  WF (mkSeries (s_freq s) (s_start s) nv (map g (s_data s))).
Proof.
  intros Hwf Hg. apply respan_WF; [assumption|apply map_length|]. destruct Hwf as [H1 _].
  apply rows_ok_map. intros r Hr. apply Hg. eapply Forall_forall in H1; eauto.
Qed.

Lemma rev_repeat {T} (x : T) n : rev (repeat x n) = repeat x n.
Proof.
  induction n as [|n IH]; [reflexivity|]. simpl. rewrite IH.
  clear IH. induction n as [|n IH]; [reflexivity|]. simpl. now rewrite IH.
Qed.

Lemma last_rev_hd {T} (l : list T) d : last (rev l) d = hd d l.
Proof. destruct l as [|x l]; [reflexivity|]. simpl. now rewrite last_last. Qed.

Lemma s_end_some (s : series) st : s_start s = Some st -> s_end A s = Some (st + Z.of_nat (length (s_data s)) - 1).
Proof. intros E. unfold s_end. now rewrite E. Qed.

Lemma trim_nv (s : series) : s_nv (trim A s) = s_nv s.
Proof.
  unfold trim. destruct (s_start s); [|reflexivity]. destruct (drop_leading A _) as [n r1].
  now destruct (rev (snd (drop_leading A (rev r1)))).
Qed.

Lemma trim_freq (s : series) : s_start (trim A s) <> None -> s_freq (trim A s) = s_freq s.
Proof.
  unfold trim. destruct (s_start s); [|now intros []]. destruct (drop_leading A _) as [n r1].
  destruct (rev (snd (drop_leading A (rev r1)))); [now intros []|reflexivity].
Qed.

(* trim strips the all-missing rows at both ends; what is left begins and ends with an observed row *)
Lemma trim_spec fr st nv (rows : list (list V)) : rows_ok nv rows ->
  exists n m body,
    rows = repeat (missrow A nv) n ++ body ++ repeat (missrow A nv) m /\ rows_ok nv body /\
    (body <> [] -> all_miss A (hd [] body) = false /\ all_miss A (last body []) = false) /\
    trim A (mkSeries fr (Some st) nv rows)
    = match body with [] => empty_series A nv | _ => mkSeries fr (Some (st + Z.of_nat n)) nv body end.
Proof.
  intros Hok. unfold trim; simpl.
  pose proof (drop_leading_spec nv rows Hok) as H1.
  destruct (drop_leading A rows) as [n rows1]. destruct H1 as (E1 & Hok1 & Hhd1).
  pose proof (drop_leading_spec nv (rev rows1) (Forall_rev Hok1)) as H2.
  destruct (drop_leading A (rev rows1)) as [m rest2]. destruct H2 as (E2 & Hok2 & Hhd2).
  assert (E3 : rows1 = rev rest2 ++ repeat (missrow A nv) m).
  { rewrite <- (rev_involutive rows1), E2, rev_app_distr, rev_repeat. reflexivity. }
  exists n, m, (rev rest2). simpl. split; [now rewrite E1, E3|]. split; [now apply Forall_rev|].
  split; [|reflexivity]. intros Hne. split.
  - rewrite E3 in Hhd1. destruct (rev rest2); [contradiction|exact Hhd1].
  - rewrite last_rev_hd. destruct rest2; [contradiction|exact Hhd2].
Qed.

(* trimming does not change the map *)
Lemma row_at_trim (s : series) t : WF s -> row_at A (trim A s) t = row_at A s t.
Proof.
  intros [Hok Hnone]. destruct s as [fr [st|] nv rows]; simpl in *; [|now rewrite Hnone].
  destruct (trim_spec fr st nv rows Hok) as (n & m & body & -> & _ & _ & ->).
  assert (Hrow : forall i, nth i (repeat (missrow A nv) n ++ body ++ repeat (missrow A nv) m) (missrow A nv)
                 = if (i <? n)%nat then missrow A nv else nth (i - n) body (missrow A nv)).
  { intros i. rewrite nth_prefix_missrows. destruct (i <? n)%nat; [reflexivity|]. apply nth_suffix_missrows. }
  unfold row_at at 2. simpl. rewrite Hrow. clear Hrow.
  destruct body as [|r0 body'] eqn:ER; unfold row_at; simpl.
  - destruct (t <? st); [reflexivity|]. destruct (_ <? n)%nat; [reflexivity|]. now destruct (_ - n)%nat.
  - destruct (Z.ltb_spec t st), (Z.ltb_spec t (st + Z.of_nat n)), (Nat.ltb_spec (Z.to_nat (t - st)) n);
      try lia; try reflexivity.
    now replace (Z.to_nat (t - (st + Z.of_nat n))) with (Z.to_nat (t - st) - n)%nat by lia.
Qed.

Lemma zrange_length a b : length (zrange a b) = Z.to_nat (b - a).
Proof. unfold zrange. now rewrite map_length, seq_length. Qed.

Lemma nth_map_in {X Y} (f : X -> Y) l i d d' : (i < length l)%nat -> nth i (map f l) d = f (nth i l d').
Proof. revert i; induction l as [|x l IH]; simpl; intros i H; [lia|]. destruct i; [reflexivity|]. apply IH; lia. Qed.

Lemma nth_map_seq {T} (f : nat -> T) n i d : (i < n)%nat -> nth i (map f (seq 0 n)) d = f i.
Proof. intros H. rewrite nth_map_in with (d' := 0%nat) by now rewrite seq_length. now rewrite seq_nth. Qed.

Lemma map_seq_nth {T} (f : nat -> T) (r : list T) d :
  (forall c, (c < length r)%nat -> f c = nth c r d) -> map f (seq 0 (length r)) = r.
Proof.
  intros H. apply nth_ext with (d := d) (d' := d); [now rewrite map_length, seq_length|].
  intros c Hc. rewrite map_length, seq_length in Hc. rewrite nth_map_seq by assumption. now apply H.
Qed.

Lemma map_const_repeat {X Y} (y : Y) (l : list X) : map (fun _ => y) l = repeat y (length l).
Proof. induction l; simpl; now f_equal. Qed.

Lemma zrange_nth a b i d : (i < Z.to_nat (b - a))%nat -> nth i (zrange a b) d = a + Z.of_nat i.
Proof.
  intros H. unfold zrange. now rewrite nth_map_seq.
Qed.

Lemma zrange_cons a b : a < b -> zrange a b = a :: zrange (a + 1) b.
Proof.
  intros H. unfold zrange. replace (Z.to_nat (b - a)) with (S (Z.to_nat (b - (a + 1)))) by lia.
  cbn [seq map]. f_equal; [lia|]. rewrite <- seq_shift, map_map. apply map_ext. lia.
Qed.

Lemma In_zrange u a b : In u (zrange a b) <-> a <= u < b.
Proof.
  unfold zrange. rewrite in_map_iff. split.
  - intros (i & <- & Hi). apply in_seq in Hi. lia.
  - intros H. exists (Z.to_nat (u - a)). split; [lia|]. apply in_seq. lia.
Qed.

Lemma trim_WF (s : series) : WF s -> WF (trim A s).
Proof.
  intros [Hok Hnone]. destruct s as [fr [st|] nv rows]; simpl in *; [|split; simpl; [constructor|reflexivity]].
  destruct (trim_spec fr st nv rows Hok) as (n & m & body & _ & Hb & _ & ->).
  destruct body; split; simpl; (assumption || discriminate || constructor).
Qed.

(* reading the stored rows: inside the span the row at its position, outside a missing row *)
Lemma row_at_rows fr st nv (rows : list (list V)) t :
  row_at A (mkSeries fr (Some st) nv rows) t
  = if (st <=? t) && (t <=? st + Z.of_nat (length rows) - 1)
    then nth (Z.to_nat (t - st)) rows (missrow A nv) else missrow A nv.
Proof.
  unfold row_at; simpl.
  destruct (Z.ltb_spec t st); [destruct (Z.leb_spec st t); [lia|reflexivity]|].
  destruct (Z.leb_spec st t); [|lia]. simpl.
  destruct (Z.leb_spec t (st + Z.of_nat (length rows) - 1)); [reflexivity|].
  apply nth_overflow. lia.
Qed.

Lemma row_at_map_zrange fr nv lo hi (f : Z -> list V) t :
  row_at A (mkSeries fr (Some lo) nv (map f (zrange lo (hi + 1)))) t
  = if (lo <=? t) && (t <=? hi) then f t else missrow A nv.
Proof.
  rewrite row_at_rows, map_length, zrange_length.
  destruct (Z.leb_spec lo t), (Z.leb_spec t hi), (Z.leb_spec t (lo + Z.of_nat (Z.to_nat (hi + 1 - lo)) - 1));
    simpl; try reflexivity; try lia.
  rewrite nth_map_in with (d' := 0) by (rewrite zrange_length; lia). rewrite zrange_nth by lia. f_equal. lia.
Qed.

(* a series built from a function on [lo, hi] *)
Lemma row_at_build fr nv lo hi (f : Z -> list V) t :
  (forall u, length (f u) = nv) ->
  row_at A (build A fr nv lo hi f) t = if (lo <=? t) && (t <=? hi) then f t else missrow A nv.
Proof.
  intros Hf. unfold build. rewrite row_at_trim by (split; simpl; [now apply rows_ok_map|discriminate]).
  apply row_at_map_zrange.
Qed.

Lemma build_WF fr nv lo hi f : (forall u, length (f u) = nv) -> WF (build A fr nv lo hi f).
Proof.
  intros Hf. apply trim_WF. split; simpl; [now apply rows_ok_map|discriminate].
Qed.

Lemma build_nv fr nv lo hi (g : Z -> list V) : s_nv (build A fr nv lo hi g) = nv.
Proof. apply trim_nv. Qed.

Lemma build_freq fr nv lo hi (g : Z -> list V) :
  s_start (build A fr nv lo hi g) <> None -> s_freq (build A fr nv lo hi g) = fr.
Proof. apply trim_freq. Qed.

Lemma row_at_length (s : series) t : WF s -> length (row_at A s t) = s_nv s.
Proof.
  intros [Hok _]. unfold row_at. destruct (s_start s); [|apply missrow_length].
  destruct (_ <? _); [apply missrow_length|].
  destruct (Nat.ltb_spec (Z.to_nat (t - z)) (length (s_data s))).
  - eapply Forall_forall in Hok; [exact Hok|]. now apply nth_In.
  - rewrite nth_overflow by lia. apply missrow_length.
Qed.

Lemma row_at_outside (s : series) t st en :
  s_start s = Some st -> s_end A s = Some en -> (t < st \/ en < t) -> row_at A s t = missrow A (s_nv s).
Proof.
  intros Hs He Ht. unfold row_at. rewrite Hs. unfold s_end in He. rewrite Hs in He. inversion He; subst.
  destruct (Z.ltb_spec t st); [reflexivity|]. apply nth_overflow. lia.
Qed.

Lemma row_at_empty (s : series) t : s_start s = None -> row_at A s t = missrow A (s_nv s).
Proof. intros H. unfold row_at. now rewrite H. Qed.

(* time shift law: Series.shift(k) moves the start by -k, so the value at t is the old value at t+k *)
Lemma row_at_shift (s : series) k t : row_at A (shift_by A s k) t = row_at A s (t + k).
Proof.
  unfold shift_by, row_at. destruct (s_start s) as [st|] eqn:E; simpl; [|now rewrite E].
  destruct (Z.ltb_spec t (st - k)), (Z.ltb_spec (t + k) st); try lia; try reflexivity.
  f_equal. lia.
Qed.

Lemma shift_by_WF (s : series) k : WF s -> WF (shift_by A s k).
Proof.
  intros [H1 H2]. unfold shift_by. destruct (s_start s) eqn:E; [|split; [assumption|intros _; now apply H2]].
  split; simpl; [assumption|discriminate].
Qed.

Lemma bcast_row_length nv (r : list V) : length (bcast_row A nv r) = nv.
Proof. unfold bcast_row. now rewrite map_length, seq_length. Qed.

Lemma bcast_row_id nv (r : list V) : length r = nv -> bcast_row A nv r = r.
Proof. intros <-. apply map_seq_nth with (d := miss A). intros c Hc. f_equal. lia. Qed.

Lemma upd_cols_length (old : list V) vids new k : length (upd_cols A old vids new k) = length old.
Proof.
  revert old k. induction vids as [|c cs IH]; intros old k; simpl; [reflexivity|].
  rewrite IH. now rewrite map_length, combine_length, seq_length, Nat.min_id.
Qed.

Lemma minl_le d0 l : minl d0 l <= d0 /\ forall d, In d l -> minl d0 l <= d.
Proof.
  unfold minl. revert d0. induction l as [|x l IH]; intros d0; simpl; [split; [lia|tauto]|].
  destruct (IH (Z.min d0 x)) as [H1 H2]. split; [lia|].
  intros d [<-|Hd]; [lia|now apply H2].
Qed.

Lemma minl_In d0 l : minl d0 l = d0 \/ In (minl d0 l) l.
Proof.
  unfold minl. revert d0. induction l as [|x l IH]; intros d0; [now left|]. cbn [fold_left].
  destruct (IH (Z.min d0 x)) as [->|H]; [|now right; right].
  destruct (Z.min_spec d0 x) as [[_ ->]|[_ ->]]; [now left|now right; left].
Qed.

(* minl d0 l is the least element of d0 :: l *)
Lemma minl_min d0 l : In (minl d0 l) (d0 :: l) /\ forall x, In x (d0 :: l) -> minl d0 l <= x.
Proof.
  destruct (minl_le d0 l) as [H0 Hl]. split.
  - destruct (minl_In d0 l) as [->|]; [now left|now right].
  - intros x [<-|H]; [exact H0|now apply Hl].
Qed.

Lemma maxl_ge d0 l : d0 <= maxl d0 l /\ forall d, In d l -> d <= maxl d0 l.
Proof.
  unfold maxl. revert d0. induction l as [|x l IH]; intros d0; simpl; [split; [lia|tauto]|].
  destruct (IH (Z.max d0 x)) as [H1 H2]. split; [lia|].
  intros d [<-|Hd]; [lia|now apply H2].
Qed.

Lemma last_assoc_notin t dates (rows : list (list V)) acc : ~ In t dates -> last_assoc A t dates rows acc = acc.
Proof.
  revert rows acc. induction dates as [|d ds IH]; intros rows acc Hn; simpl; [reflexivity|].
  destruct rows as [|r rs]; [reflexivity|].
  rewrite IH by (intros H; apply Hn; now right).
  destruct (Z.eqb_spec d t); [exfalso; apply Hn; now left|reflexivity].
Qed.

Lemma last_assoc_map t dates (g : Z -> list V) acc :
  In t dates -> last_assoc A t dates (map g dates) acc = Some (g t).
Proof.
  revert acc. induction dates as [|d ds IH]; intros acc Hin; [destruct Hin|]. simpl.
  destruct (in_dec Z.eq_dec t ds) as [Hds|Hds].
  - now apply IH.
  - rewrite last_assoc_notin by assumption. destruct Hin as [->|Hin]; [|contradiction].
    now rewrite Z.eqb_refl.
Qed.

Lemma set_data_fun_len (s : series) dates rows vids u : WF s ->
  length (match last_assoc A u dates rows None with
          | Some r => match vids with None => bcast_row A (s_nv s) r | Some cols => upd_cols A (row_at A s u) cols r 0 end
          | None => row_at A s u end) = s_nv s.
Proof.
  intros Hwf. destruct (last_assoc A u dates rows None).
  - destruct vids; [rewrite upd_cols_length; now apply row_at_length|apply bcast_row_length].
  - now apply row_at_length.
Qed.

Lemma set_data_WF_any fr (s : series) dates rows vids : WF s -> WF (set_data A fr s dates rows vids).
Proof.
  intros Hwf. unfold set_data. destruct dates as [|d0 ds]; [assumption|].
  apply build_WF. intros u. now apply set_data_fun_len.
Qed.

(* a write changes exactly the addressed periods (all variants) *)
Lemma row_at_set_data fr (s : series) dates rows t :
  WF s ->
  row_at A (set_data A fr s dates rows None) t
  = match last_assoc A t dates rows None with
    | Some r => bcast_row A (s_nv s) r
    | None => row_at A s t
    end.
Proof.
  intros Hwf. unfold set_data. destruct dates as [|d0 ds]; [reflexivity|].
  set (dates := d0 :: ds).
  rewrite row_at_build by (intros u; now apply (set_data_fun_len s dates rows None)).
  destruct (andb _ _) eqn:E; [reflexivity|].
  assert (Hout : ~ In t dates).
  { intros Hin. pose proof (proj2 (minl_le d0 dates) _ Hin). pose proof (proj2 (maxl_ge d0 dates) _ Hin). lia. }
  rewrite last_assoc_notin by assumption.
  destruct (s_start s) as [st|] eqn:Es; [|now rewrite row_at_empty].
  pose proof (s_end_some s st Es) as Hen.
  rewrite Hen in E. symmetry. eapply row_at_outside; eauto.
  pose proof (proj1 (minl_le d0 dates)). pose proof (proj1 (maxl_ge d0 dates)). lia.
Qed.

(* writing a function over a range of periods *)
Lemma row_at_set_range fr (s : series) a b (g : Z -> list V) t : WF s -> (forall u, length (g u) = s_nv s) ->
  row_at A (set_data A fr s (zrange a (b + 1)) (map g (zrange a (b + 1))) None) t
  = if (a <=? t) && (t <=? b) then g t else row_at A s t.
Proof.
  intros Hwf Hg. rewrite row_at_set_data by assumption. destruct (andb _ _) eqn:E.
  - rewrite last_assoc_map by (apply In_zrange; lia). apply bcast_row_id, Hg.
  - rewrite last_assoc_notin; [reflexivity|]. intros Hin%In_zrange. lia.
Qed.

Lemma set_data_WF fr (s : series) dates rows : WF s -> WF (set_data A fr s dates rows None).
Proof. apply set_data_WF_any. Qed.

Lemma set_data_nv fr (s : series) dates rows : s_nv (set_data A fr s dates rows None) = s_nv s.
Proof.
  unfold set_data. destruct dates as [|d0 ds]; [reflexivity|apply build_nv].
Qed.

Lemma zip_bcast_length (f : V -> V -> V) r1 r2 : length (zip_bcast A f r1 r2) = Nat.max (length r1) (length r2).
Proof. unfold zip_bcast. now rewrite map_length, seq_length. Qed.

Lemma zip_bcast_nth (f : V -> V -> V) r1 r2 c :
  length r1 = length r2 -> (c < length r1)%nat ->
  nth c (zip_bcast A f r1 r2) (miss A) = f (nth c r1 (miss A)) (nth c r2 (miss A)).
Proof.
  intros Hl Hc. unfold zip_bcast. rewrite nth_map_seq by lia. rewrite <- Hl.
  destruct (Nat.eqb_spec (length r1) 1); [|reflexivity].
  replace c with 0%nat by lia. reflexivity.
Qed.

Lemma zip_bcast_eq (f : V -> V -> V) r1 r2 r :
  length r1 = length r -> length r2 = length r ->
  (forall c, (c < length r)%nat -> f (nth c r1 (miss A)) (nth c r2 (miss A)) = nth c r (miss A)) ->
  zip_bcast A f r1 r2 = r.
Proof.
  intros L1 L2 H. assert (L : length (zip_bcast A f r1 r2) = length r) by (rewrite zip_bcast_length; lia).
  apply nth_ext with (d := miss A) (d' := miss A); [exact L|].
  intros c Hc. rewrite zip_bcast_nth by lia. apply H. lia.
Qed.

(* a successful binary operation is the empty series for two empty operands, and otherwise built period by
   period on the encompassing span *)
Lemma binop_ok (f : V -> V -> V) (s1 s2 r : series) : binop A f s1 s2 = Ok r ->
  (s_start s1 = None /\ s_start s2 = None /\ r = empty_series A (Nat.max (s_nv s1) (s_nv s2))) \/
  exists fr lo hi, omin (s_start s1) (s_start s2) = Some lo /\ omax (s_end A s1) (s_end A s2) = Some hi /\
    r = build A fr (Nat.max (s_nv s1) (s_nv s2)) lo hi (fun t => zip_bcast A f (row_at A s1 t) (row_at A s2 t)).
Proof.
  unfold binop. intros H.
  destruct (s_start s1) eqn:E1, (s_start s2) eqn:E2; [right..|left; now injection H as <-]; cbv zeta iota in H.
  1: destruct (negb (s_freq s1 =? s_freq s2)); [discriminate|].
  all: destruct (negb _); [discriminate|]; destruct (omin _ _) as [lo|]; [|discriminate];
    destruct (omax _ _) as [hi|]; [|discriminate]; injection H as <-; eauto 7.
Qed.

(* binary operators act period by period on the encompassing span *)
Lemma row_at_binop (f : V -> V -> V) (s1 s2 s : series) :
  WF s1 -> WF s2 -> s_nv s1 = s_nv s2 -> (s_start s1 = None -> s_start s2 = None -> False) ->
  binop A f s1 s2 = Ok s ->
  exists lo hi, omin (s_start s1) (s_start s2) = Some lo /\ omax (s_end A s1) (s_end A s2) = Some hi /\
  WF s /\ s_nv s = s_nv s1 /\
  forall t, row_at A s t = if (lo <=? t) && (t <=? hi) then zip_bcast A f (row_at A s1 t) (row_at A s2 t)
                          else missrow A (s_nv s1).
Proof.
  intros W1 W2 Hnv Hne Hb.
  destruct (binop_ok f s1 s2 s Hb) as [(E1 & E2 & _)|(fr & lo & hi & Hlo & Hhi & ->)]; [now elim Hne|].
  rewrite <- Hnv, Nat.max_id. exists lo, hi.
  assert (Hlen : forall u, length (zip_bcast A f (row_at A s1 u) (row_at A s2 u)) = s_nv s1)
    by (intros u; rewrite zip_bcast_length, !row_at_length by assumption; rewrite <- Hnv; apply Nat.max_id).
  split; [exact Hlo|]. split; [exact Hhi|]. split; [now apply build_WF|]. split; [apply build_nv|].
  intros t. now rewrite row_at_build.
Qed.

End SeriesProofs.
