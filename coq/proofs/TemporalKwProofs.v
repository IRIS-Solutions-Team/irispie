(* Proofs about model/TemporalKw.v: the reference day of the daily keyword shifts, the change
   formulas with these references, the start-of-year value with tty, and forward cumulation
   with a keyword shift inverting the change on a span. *)
From Coq Require Import ZArith List Bool Lia Reals Lra.
From Verif Require Import proofs.DatesProofs lib.Calendar lib.Arith lib.PyRange lib.Period model.Series gen.TemporalGen
     gen.DatesGen model.Temporal model.TemporalKw proofs.SeriesProofs proofs.TemporalProofs.
Import ListNotations.
Open Scope Z_scope.

Definition in_cal (t : Z) : Prop := 1 <= t <= max_ordinal.

(* tty: the previous day, except on 1 January (no reference) *)
Lemma daily_tty t : in_cal t ->
  kw_ref 365 Tty t = Some (if t =? ord_of_ymd (year_of_ord t) 1 1 then None else Some (t - 1)).
Proof.
  intros H. destruct (daily_create_spec t H) as (_ & _ & _ & T).
  unfold kw_ref. change (365 =? freq_DAILY) with true. cbv iota. rewrite T. f_equal.
  unfold doy_of_ord. rewrite ord_jan1. pose proof (year_of_ord_spec t).
  destruct (Z.gtb_spec (t - days_before_year (year_of_ord t)) 1), (Z.eqb_spec t (days_before_year (year_of_ord t) + 1));
    try reflexivity; lia.
Qed.

Lemma daily_int t k : kw_ref 365 (ByInt k) t = Some (Some (t + k)).
Proof. reflexivity. Qed.

(* soy: 1 January of the year of t; eopy: the day before it, 31 December of the previous year (in year 1 the code
   raises: datetime.date(0, 12, 31)); yoy as coded: 365 days back (Frequency.DAILY.value), whatever the length of the year *)
Theorem daily_reference_days t : in_cal t ->
  let y := year_of_ord t in
  let jan1 := ord_of_ymd y 1 1 in
  ymd_of_ord jan1 = (y, 1, 1) /\ jan1 <= t /\
  kw_ref 365 Soy t = Some (Some jan1) /\
  (2 <= y -> kw_ref 365 Eopy t = Some (Some (jan1 - 1)) /\ ymd_of_ord (jan1 - 1) = (y - 1, 12, 31)) /\
  (y = 1 -> kw_ref 365 Eopy t = None) /\
  kw_ref 365 Tty t = Some (if t =? jan1 then None else Some (t - 1)) /\
  kw_ref 365 Yoy t = Some (Some (t - 365)).
Proof.
  intros H y jan1. destruct (daily_create_spec t H) as (S & E & E1 & _). fold y in S, E, E1.
  pose proof (year_in_range t H) as Y. fold y in Y. unfold MINYEAR in Y.
  change (kw_ref 365 Soy t) with (option_map (@Some Z) (gen_daily_create_soy t)).
  change (kw_ref 365 Eopy t) with (option_map (@Some Z) (gen_daily_create_eopy t)).
  refine (conj _ (conj _ (conj _ (conj _ (conj _ (conj (daily_tty t H) eq_refl)))))).
  - apply ymd_of_ord_of_ymd, valid_jan1, Y.
  - unfold jan1. rewrite ord_jan1. pose proof (year_of_ord_spec t) as S0. fold y in S0. lia.
  - rewrite S. reflexivity.
  - intros Y2. pose proof (year_boundary (y - 1)) as B. replace (y - 1 + 1) with y in B by lia.
    replace (jan1 - 1) with (ord_of_ymd (y - 1) 12 31) by (unfold jan1; lia). rewrite (E Y2).
    split; [reflexivity |]. apply ymd_of_ord_of_ymd, valid_dec31. lia.
  - intros Y1. rewrite (E1 Y1). reflexivity.
Qed.

(* the regular classes: lib/Period.v *)
Lemma regular_kw_ref fr by_ t : fr <> 365 -> kw_ref fr by_ t = Some (period_shift fr by_ t).
Proof. intros H. unfold kw_ref. destruct (Z.eqb_spec fr freq_DAILY) as [E|E]; [contradiction|reflexivity]. Qed.

Section LiftKw.
Variable A : Arith.
Notation V := (car A).
Notation series := (series A).
Hypothesis miss_law : forall x : V, is_miss A x = true -> x = miss A.
Variables (chg cumf : V -> V -> V) (dom : V -> Prop).
Hypothesis step_law : forall a p, dom a -> dom p -> cumf p (chg a p) = a.

(* the initial condition reaches back to the first period of the span as soon as some period of the span refers
   to it or to an earlier one *)
Lemma min_period_reach rf a b t r : a <= t <= b -> rf t = Some r -> r <= a -> min_period_of rf (py_range a (b + 1) 1) a <= a.
Proof.
  intros Ht Hr Hle. rewrite py_range_step1.
  assert (Hin : In (t, r) (zipped_of rf (zrange a (b + 1)))) by (apply In_zipped; split; [apply In_zrange; lia|assumption]).
  pose proof (min_period_le rf _ a t r Hin). lia.
Qed.

Definition nval (neutral : option Z) : V := match neutral with Some z => ofZ A z | None => miss A end.

Lemma span_of_some (x : series) st : s_start x = Some st ->
  span_of A x = zrange st (st + Z.of_nat (length (s_data x)) - 1 + 1).
Proof. intros Hst. unfold span_of, s_end. rewrite Hst. reflexivity. Qed.

Lemma shift_rf_soy (rf : Z -> option Z) by_ neutral (x : series) st :
  by_ = Soy \/ by_ = Eopy -> s_start x = Some st ->
  series_shift_rf A rf by_ neutral x
  = build A (s_freq x) (s_nv x) st (st + Z.of_nat (length (s_data x)) - 1)
      (fun u => row_at A x (match rf u with Some r => r | None => u end)).
Proof.
  intros Hby Hst. unfold series_shift_rf, build. rewrite (span_of_some x st Hst).
  destruct Hby as [-> | ->]; rewrite Hst; unfold get_data; rewrite map_map; reflexivity.
Qed.

Lemma shift_rf_tty_WF rf neutral (x : series) : WF A x ->
  WF A (series_shift_rf A rf Tty neutral x) /\ s_nv (series_shift_rf A rf Tty neutral x) = s_nv x.
Proof.
  intros Hwf. unfold series_shift_rf. split.
  - apply set_data_WF; [assumption|]. apply set_data_WF; assumption.
  - rewrite !set_data_nv. reflexivity.
Qed.

Lemma shift_rf_tty_row rf neutral (x : series) st t :
  let en := st + Z.of_nat (length (s_data x)) - 1 in
  WF A x -> s_start x = Some st -> st <= t <= en ->
  row_at A (series_shift_rf A rf Tty neutral x) t
  = match rf t with Some r => row_at A x r | None => bcast_row A (s_nv x) [nval neutral] end.
Proof.
  intros en Hwf Hst Ht. unfold series_shift_rf. rewrite (span_of_some x st Hst). fold en.
  set (sp := zrange st (en + 1)).
  assert (Hin : In t sp) by (apply In_zrange; lia).
  set (wt := filter (fun t => match rf t with Some _ => true | None => false end) sp).
  set (np := filter (fun t => match rf t with Some _ => false | None => true end) sp).
  set (refd := fun u => match rf u with Some r => r | None => u end).
  assert (W1 : WF A (set_data A (s_freq x) x wt (get_data A x (map refd wt)) None)) by (now apply set_data_WF).
  rewrite row_at_set_data by (assumption || exact W1). rewrite set_data_nv.
  destruct (rf t) as [r0|] eqn:E.
  - rewrite last_assoc_notin by (subst np; rewrite filter_In, E; intros [_ H]; discriminate H).
    rewrite row_at_set_data by assumption. unfold get_data. rewrite map_map.
    rewrite last_assoc_map with (g := fun u => row_at A x (refd u)) by (subst wt; rewrite filter_In, E; split; [assumption|reflexivity]).
    unfold refd. rewrite E. apply bcast_row_id. now apply row_at_length.
  - rewrite last_assoc_map with (g := fun _ : Z => [nval neutral]) by (subst np; rewrite filter_In, E; split; [assumption|reflexivity]).
    reflexivity.
Qed.

Lemma kw_ref_soy_not_none fr by_ t : by_ = Soy \/ by_ = Eopy -> kw_ref fr by_ t <> Some None.
Proof.
  intros [-> | ->]; unfold kw_ref; destruct (fr =? freq_DAILY); try discriminate.
  - destruct (gen_daily_create_soy t); discriminate.
  - destruct (gen_daily_create_eopy t); discriminate.
Qed.

(* the copy shifted by [by_]: the row of its reference period, the neutral value where create_tty returns None *)
Lemma shift_kw_spec by_ neutral (x : series) st :
  let en := st + Z.of_nat (length (s_data x)) - 1 in
  WF A x -> s_start x = Some st ->
  WF A (series_shift_kw A by_ neutral x) /\ s_nv (series_shift_kw A by_ neutral x) = s_nv x /\
  forall t, st <= t <= en ->
    match kw_ref (s_freq x) by_ t with
    | Some (Some r) => row_at A (series_shift_kw A by_ neutral x) t = row_at A x r
    | Some None => row_at A (series_shift_kw A by_ neutral x) t = bcast_row A (s_nv x) [nval neutral]
    | None => True
    end.
Proof.
  intros en Hwf Hst. unfold series_shift_kw.
  match goal with |- ?G => assert (SOY : by_ = Soy \/ by_ = Eopy -> G) end.
  { intros Hby. rewrite (shift_rf_soy _ by_ neutral x st Hby Hst).
    assert (Hlen : forall u, length (row_at A x (match kw_ref_tot (s_freq x) by_ u with Some r => r | None => u end)) = s_nv x)
      by (intros; now apply row_at_length).
    split; [now apply build_WF|]. split.
    { apply build_nv. }
    intros t Ht. destruct (kw_ref (s_freq x) by_ t) as [[r|]|] eqn:E; [| |exact I].
    + rewrite row_at_build by assumption. fold en.
      replace ((st <=? t) && (t <=? en)) with true by lia.
      unfold kw_ref_tot. rewrite E. reflexivity.
    + exfalso. now apply (kw_ref_soy_not_none (s_freq x) by_ t Hby). }
  destruct by_ as [k| | | |]; [| | apply SOY; auto | apply SOY; auto |]; clear SOY.
  - cbn [series_shift_rf]. split; [now apply shift_by_WF|]. split; [unfold shift_by; rewrite Hst; reflexivity|].
    intros t Ht. rewrite row_at_shift. unfold kw_ref. destruct (s_freq x =? freq_DAILY); reflexivity.
  - cbn [series_shift_rf]. split; [now apply shift_by_WF|]. split; [unfold shift_by; rewrite Hst; reflexivity|].
    intros t Ht. rewrite row_at_shift. unfold kw_ref. destruct (s_freq x =? freq_DAILY); [reflexivity|].
    cbn [period_shift]. unfold p_yoy. f_equal; lia.
  - destruct (shift_rf_tty_WF (kw_ref_tot (s_freq x) Tty) neutral x Hwf) as [W N].
    split; [exact W|]. split; [exact N|].
    intros t Ht. rewrite (shift_rf_tty_row _ neutral x st t Hwf Hst Ht). unfold kw_ref_tot.
    destruct (kw_ref (s_freq x) Tty t) as [[r|]|]; [reflexivity|reflexivity|exact I].
Qed.

Lemma omin_le a o lo : omin (Some a) o = Some lo -> lo <= a.
Proof. destruct o; simpl; intros H; inversion H; lia. Qed.
Lemma omax_ge a o hi : omax (Some a) o = Some hi -> a <= hi.
Proof. destruct o; simpl; intros H; inversion H; lia. Qed.

Lemma kw_raises_false fr by_ sp t : kw_raises fr by_ sp = false -> In t sp -> kw_ref fr by_ t <> None.
Proof.
  intros H Hin E. unfold kw_raises in H.
  assert (existsb (fun t => match kw_ref fr by_ t with None => true | Some _ => false end) sp = true)
    by (apply existsb_exists; exists t; split; [assumption|now rewrite E]).
  congruence.
Qed.

(* the change series: f(x_t, x_ref(t)) period by period, f(x_t, neutral) where there is no reference *)
Theorem change_kw_rows (f : V -> V -> V) by_ neutral (x c : series) st :
  let en := st + Z.of_nat (length (s_data x)) - 1 in
  WF A x -> s_start x = Some st ->
  temporal_change_kw A f by_ neutral x = Ok c ->
  WF A c /\ s_nv c = s_nv x /\
  forall t, st <= t <= en ->
    match kw_ref (s_freq x) by_ t with
    | Some (Some r) => row_at A c t = zip_bcast A f (row_at A x t) (row_at A x r)
    | Some None => row_at A c t = zip_bcast A f (row_at A x t) (bcast_row A (s_nv x) [nval neutral])
    | None => False
    end.
Proof.
  intros en Hwf Hst Hc. unfold temporal_change_kw in Hc.
  destruct (shift_invalid by_); [discriminate|].
  destruct (kw_raises (s_freq x) by_ (span_of A x)) eqn:Hr; [discriminate|].
  destruct (shift_kw_spec by_ neutral x st Hwf Hst) as (W & N & Hrow).
  assert (Hne0 : s_start x = None -> s_start (series_shift_kw A by_ neutral x) = None -> False) by (rewrite Hst; discriminate).
  destruct (row_at_binop A miss_law f x _ c Hwf W (eq_sym N) Hne0 Hc) as (lo & hi & Hlo & Hhi & Hwfc & Hnvc & Hrowc).
  rewrite Hst in Hlo. apply omin_le in Hlo.
  assert (Hen : s_end A x = Some en) by (unfold s_end; rewrite Hst; reflexivity).
  rewrite Hen in Hhi. apply omax_ge in Hhi.
  split; [exact Hwfc|]. split; [exact Hnvc|].
  intros t Ht. specialize (Hrow t Ht).
  assert (Hnn : kw_ref (s_freq x) by_ t <> None).
  { apply (kw_raises_false _ _ _ _ Hr). rewrite (span_of_some x st Hst). apply In_zrange. fold en. lia. }
  rewrite Hrowc.
  replace ((lo <=? t) && (t <=? hi)) with true by lia.
  destruct (kw_ref (s_freq x) by_ t) as [[r|]|]; [now rewrite Hrow|now rewrite Hrow|now apply Hnn].
Qed.

End LiftKw.

Section PublicKw.
Notation RA := RArith.

Lemma zipped_nil rf span : (forall t, In t span -> rf t = None) -> zipped_of rf span = [].
Proof.
  induction span as [|u l IH]; intros H; [reflexivity|]. unfold zipped_of. cbn [flat_map].
  rewrite (H u (or_introl eq_refl)). simpl. apply IH. intros t Ht. apply H. now right.
Qed.

Lemma min_period_single rf a : rf a = None -> min_period_of rf (py_range a (a + 1) 1) a <= a.
Proof.
  intros H. unfold min_period_of. rewrite zipped_nil; [simpl; lia|].
  intros t Ht. rewrite py_range_step1 in Ht. apply In_zrange in Ht. replace t with a by lia. exact H.
Qed.

(* 1. the change with a keyword shift, period by period, for every frequency class *)
Theorem kw_change_formula k by_ (x c : series RA) st :
  let en := st + Z.of_nat (length (s_data x)) - 1 in
  WF RA x -> s_start x = Some st -> change_fixed_shift k = None ->
  change_kw RA k by_ x = Ok c ->
  forall t, st <= t <= en ->
    match kw_ref (s_freq x) by_ t with
    | Some (Some r) => row_at RA c t = zip_bcast RA (change_fun RA k (factor_of RA x)) (row_at RA x t) (row_at RA x r)
    | Some None => row_at RA c t = zip_bcast RA (change_fun RA k (factor_of RA x)) (row_at RA x t)
                                     (bcast_row RA (s_nv x) [nval RA (change_neutral k)])
    | None => False
    end.
Proof.
  intros en Hwf Hst Hfix Hc. unfold change_kw in Hc. rewrite Hfix in Hc.
  destruct (change_kw_rows RA RA_miss_law _ by_ _ x c st Hwf Hst Hc) as (_ & _ & H). exact H.
Qed.

Lemma bcast_single_nth nv (v : R) i : (i < nv)%nat -> nth i (bcast_row RA nv [v]) (miss RA) = v.
Proof.
  intros Hi. unfold bcast_row. rewrite nth_map_in with (d' := 0%nat) by (rewrite seq_length; lia).
  cbn [length]. rewrite Nat.sub_diag, Nat.min_0_r. reflexivity.
Qed.

Lemma zip_neutral_row (f : R -> R -> R) (v : R) (row : list R) nv :
  length row = nv -> (forall a, f a v = a) -> zip_bcast RA f row (bcast_row RA nv [v]) = row.
Proof.
  intros Hl Hf. subst nv. assert (Lb := bcast_row_length RA (length row) [v]).
  apply nth_ext with (d := miss RA) (d' := miss RA).
  - rewrite zip_bcast_length, Lb. apply Nat.max_id.
  - intros i Hi. rewrite zip_bcast_length, Lb, Nat.max_id in Hi.
    rewrite zip_bcast_nth by (rewrite ?Lb; auto). rewrite bcast_single_nth by assumption. apply Hf.
Qed.

(* 2. documented start-of-year value with tty: diff and roc leave the value unchanged there (every frequency class) *)
Theorem tty_start_of_year_unchanged k (x c : series RA) st :
  let en := st + Z.of_nat (length (s_data x)) - 1 in
  k = KDiff \/ k = KRoc ->
  WF RA x -> s_start x = Some st ->
  change_kw RA k Tty x = Ok c ->
  forall t, st <= t <= en -> kw_ref (s_freq x) Tty t = Some None -> row_at RA c t = row_at RA x t.
Proof.
  intros en Hk Hwf Hst Hc t Ht Hnone.
  assert (Hfix : change_fixed_shift k = None) by (destruct Hk as [-> | ->]; reflexivity).
  pose proof (kw_change_formula k Tty x c st Hwf Hst Hfix Hc t Ht) as H. rewrite Hnone in H. rewrite H.
  apply zip_neutral_row; [apply (row_at_length RA); solve [assumption | exact RA_miss_law]|].
  destruct Hk as [-> | ->]; intros a; cbv [change_fun change_neutral nval change_diff_neutral change_roc_neutral].
  - rewrite diff_formula. change (ofZ RA 0) with (IZR 0). lra.
  - rewrite roc_formula. change (ofZ RA 1) with (IZR 1). field.
Qed.

(* the start-of-year periods: segment 1 of a regular year, 1 January of a daily year *)
Lemma tty_none_regular fr t : fr <> 365 -> t mod fr = 0 -> kw_ref fr Tty t = Some None.
Proof.
  intros Hfr Hm. rewrite regular_kw_ref by assumption. cbn [period_shift]. unfold p_tty, serial_seg. rewrite Hm. reflexivity.
Qed.
Lemma tty_none_daily t : in_cal t -> t = ord_of_ymd (year_of_ord t) 1 1 -> kw_ref 365 Tty t = Some None.
Proof. intros H E. rewrite daily_tty by assumption. rewrite <- E, Z.eqb_refl. reflexivity. Qed.

Lemma kw_ref_tot_some fr by_ u q : kw_ref_tot fr by_ u = Some q <-> kw_ref fr by_ u = Some (Some q).
Proof. unfold kw_ref_tot. destruct (kw_ref fr by_ u) as [[q'|]|]; split; intros H; try discriminate; congruence. Qed.

Lemma change_kw_valid k by_ (x c : series RA) : change_fixed_shift k = None -> change_kw RA k by_ x = Ok c -> shift_invalid by_ = false.
Proof.
  intros Hfix Hc. unfold change_kw, temporal_change_kw in Hc. rewrite Hfix in Hc. destruct (shift_invalid by_); [discriminate|reflexivity].
Qed.

(* 3. forward cumulation with the same (keyword or integer) shift and the original series as initial condition
      reproduces the series on the span a..b, whatever the number of years (leap or common) the span covers *)
Theorem kw_cum_forward_inverts ck by_ (x c r : series RA) st a b :
  let en := st + Z.of_nat (length (s_data x)) - 1 in
  let fr := s_freq x in
  WF RA x -> s_start x = Some st -> cells_in RA (dom_of ck) x st en ->
  st <= a <= b -> b <= en ->
  (* every reference period of the span lies in the sample, not after its period *)
  (forall t q, a <= t <= b -> kw_ref fr by_ t = Some (Some q) -> st <= q <= t) ->
  (* the first period of the span has a reference, or it is a start-of-year period followed by an ordinary one *)
  ((exists q, kw_ref fr by_ a = Some (Some q)) \/
   (kw_ref fr by_ a = Some None /\ (a = b \/ kw_ref fr by_ (a + 1) = Some (Some a)))) ->
  change_kw RA (chg_of ck) by_ x = Ok c ->
  s_freq c = fr ->
  temporal_cumulation_kw RA ck by_ (InitSeries RA x) (SpanFromTo a b 1) c = Ok r ->
  forall t, a <= t <= b -> row_at RA r t = row_at RA x t.
Proof.
  intros en fr Hwf Hst Hdom Hab Hb Href Hfirst Hc Hfr Hr t Ht.
  assert (Hfix : change_fixed_shift (chg_of ck) = None) by (destruct ck; reflexivity).
  pose proof (change_kw_valid _ _ _ _ Hfix Hc) as Hval.
  unfold change_kw in Hc. rewrite Hfix in Hc.
  destruct (change_kw_rows RA RA_miss_law _ by_ _ x c st Hwf Hst Hc) as (_ & Hnvc & Hform).
  unfold temporal_cumulation_kw in Hr. rewrite Hval in Hr.
  cbn [sgn] in Hr. change (1 >? 0) with true in Hr. cbv iota beta in Hr.
  rewrite Hfr in Hr. change (sgn 1) with 1 in Hr.
  destruct (kw_raises fr by_ (py_range a (b + 1) 1)); [discriminate|].
  inversion Hr as [Hr']. clear Hr. cbn [initial_rows].
  set (rf := kw_ref_tot fr by_).
  assert (Hmin : min_period_of rf (py_range a (b + 1) 1) a <= a).
  { destruct Hfirst as [[q Hq]|[Hn Hn1]].
    - apply (min_period_reach rf a b a q); [lia|now apply kw_ref_tot_some|]. destruct (Href a q) as [_ H]; [lia|exact Hq|lia].
    - destruct (Z.eq_dec a b) as [->|Hne].
      + apply min_period_single. unfold rf, kw_ref_tot. now rewrite Hn.
      + destruct Hn1 as [E|Hn1]; [contradiction|]. apply (min_period_reach rf a b (a + 1) a); [lia|now apply kw_ref_tot_some|lia]. }
  apply (cum_forward_rf_inverts RA RA_miss_law _ _ (dom_of ck) (fwd_law ck (factor_of RA x)) x c rf st a b);
    try assumption; try lia.
  intros u q Hu Hq. apply kw_ref_tot_some in Hq. split; [now apply (Href u q)|].
  specialize (Hform u). fold fr in Hform. rewrite Hq in Hform. apply Hform. lia.
Qed.

End PublicKw.

