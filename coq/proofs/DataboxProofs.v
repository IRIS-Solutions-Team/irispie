(* C19: the databox as a finite map; what the loops of the databox operations write and what the selected names
   hold afterwards; operation histories; the dataslate conversions.  The theorems of props/C19.v about operations and
   dataslates are assembled from these lemmas. *)
From Coq Require Import String ZArith List Bool Lia.
From Verif Require Import lib.Arith model.Series model.SeriesOps model.Databox model.Slate
  proofs.SeriesProofs proofs.SeriesOpsProofs.
Import ListNotations.
Open Scope Z_scope.

Lemma fold_res_err {S T} (step : res S -> T -> res S) : (forall e x, step (Err e) x = Err e) ->
  forall l e, fold_left step l (Err e) = Err e.
Proof. intros He l e. induction l as [|x l IH]; cbn [fold_left]; [reflexivity|now rewrite He]. Qed.

(* what every step of a successful run preserves holds at its end *)
Lemma fold_res_inv {S T} (step : res S -> T -> res S) (P : S -> Prop) l :
  (forall e x, step (Err e) x = Err e) ->
  (forall s x s', In x l -> P s -> step (Ok s) x = Ok s' -> P s') ->
  forall s s', P s -> fold_left step l (Ok s) = Ok s' -> P s'.
Proof.
  intros He. induction l as [|x l IH]; intros Hstep s s' Hs H; cbn [fold_left] in H.
  - now inversion H; subst.
  - destruct (step (Ok s) x) as [s1|e] eqn:E; [|rewrite fold_res_err in H by assumption; discriminate].
    apply (IH (fun s x s' Hx => Hstep s x s' (or_intror Hx)) s1); [|assumption].
    apply (Hstep s x); [now left|assumption|assumption].
Qed.

Lemma filter_all {X} (p : X -> bool) l : (forall x, In x l -> p x = true) -> filter p l = l.
Proof.
  induction l as [|a r IH]; simpl; intros H; [reflexivity|].
  rewrite (H a) by now left. f_equal. apply IH. intros x Hx. apply H. now right.
Qed.

Lemma combine_app' {X Y} (a1 a2 : list X) (b1 b2 : list Y) : length a1 = length b1 ->
  combine (a1 ++ a2) (b1 ++ b2) = combine a1 b1 ++ combine a2 b2.
Proof.
  revert b1. induction a1 as [|x r IH]; intros [|y s] H; simpl in *; try discriminate; [reflexivity|].
  f_equal. apply IH. congruence.
Qed.

Lemma NoDup_snoc {T} (l : list T) x : NoDup l -> ~ In x l -> NoDup (l ++ [x]).
Proof.
  intros Hl Hx. apply NoDup_rev in Hl. rewrite <- (rev_involutive (l ++ [x])), rev_app_distr.
  apply NoDup_rev. constructor; [now rewrite <- in_rev|assumption].
Qed.

Section DataboxProofs.
Variable A : Arith.
Notation V := (car A).
Notation series := (series A).
Notation databox := (databox A).
Notation item := (item A).

Definition ND (db : databox) : Prop := NoDup (names A db).

Lemma smem_In k l : smem k l = true <-> In k l.
Proof.
  unfold smem. rewrite existsb_exists. split.
  - intros (x & Hx & E). apply String.eqb_eq in E. now subst.
  - intros H. exists k. split; [assumption|apply String.eqb_refl].
Qed.

Lemma smem_false k l : smem k l = false <-> ~ In k l.
Proof. rewrite <- smem_In. destruct (smem k l); intuition congruence. Qed.

Lemma smem_cons k n l : smem k (n :: l) = String.eqb k n || smem k l.
Proof. reflexivity. Qed.

Lemma dget_None (db : databox) k : dget A db k = None <-> ~ In k (names A db).
Proof.
  induction db as [|[k' v] r IH]; simpl; [tauto|].
  destruct (String.eqb_spec k' k) as [->|Hne]; [|tauto].
  split; [discriminate|]. intros H. contradiction H. now left.
Qed.

Lemma In_names_dget (db : databox) k : In k (names A db) <-> dget A db k <> None.
Proof. rewrite dget_None. destruct (in_dec string_dec k (names A db)); tauto. Qed.

Lemma dget_Some_In (db : databox) k v : dget A db k = Some v -> In k (names A db).
Proof. intros H. apply In_names_dget. congruence. Qed.

Lemma dhas_In (db : databox) k : dhas A db k = true <-> In k (names A db).
Proof. rewrite In_names_dget. unfold dhas. destruct (dget A db k); intuition congruence. Qed.

(* with unique names the databox is the graph of its lookup function *)
Lemma In_db_dget (db : databox) n it : ND db -> (In (n, it) db <-> dget A db n = Some it).
Proof.
  unfold ND. induction db as [|[k v] r IH]; intros Hnd; cbn [dget names map fst] in *.
  - split; [intros []|discriminate].
  - inversion Hnd as [|? ? Hn1 Hn2]; subst. destruct (String.eqb_spec k n) as [->|Hne].
    + split; [|intros E; inversion E; now left].
      intros [E|Hin]; [now inversion E|]. exfalso. apply Hn1. apply in_map_iff. now exists (n, it).
    + rewrite <- (IH Hn2). split; [intros [E|Hin]; [inversion E; congruence|assumption]|intros Hin; now right].
Qed.

Lemma dget_dset (db : databox) k k' v :
  dget A (dset A db k v) k' = if String.eqb k k' then Some v else dget A db k'.
Proof.
  induction db as [|[k0 v0] r IH]; simpl; [reflexivity|].
  destruct (String.eqb_spec k0 k) as [->|H0]; simpl.
  - now destruct (String.eqb k k').
  - rewrite IH. destruct (String.eqb_spec k0 k') as [<-|]; [|reflexivity].
    now destruct (String.eqb_spec k k0); [congruence|].
Qed.

Lemma dget_dset_same (db : databox) k v : dget A (dset A db k v) k = Some v.
Proof. now rewrite dget_dset, String.eqb_refl. Qed.

Lemma dget_dset_other (db : databox) k k' v : k <> k' -> dget A (dset A db k v) k' = dget A db k'.
Proof. intros H. apply String.eqb_neq in H. now rewrite dget_dset, H. Qed.

Lemma names_dset (db : databox) k v :
  names A (dset A db k v) = if dhas A db k then names A db else names A db ++ [k].
Proof.
  unfold dhas. induction db as [|[k0 v0] r IH]; simpl; [reflexivity|].
  destruct (String.eqb_spec k0 k) as [->|H0]; simpl; [reflexivity|].
  unfold names in *. rewrite IH. now destruct (dget A r k).
Qed.

Lemma In_names_dset (db : databox) k v x : In x (names A (dset A db k v)) <-> x = k \/ In x (names A db).
Proof.
  rewrite names_dset. destruct (dhas A db k) eqn:E.
  - apply dhas_In in E. split; [now right|intros [->|H]; assumption].
  - rewrite in_app_iff. simpl. split; [intros [H|[H|[]]]; auto|intros [->|H]; auto].
Qed.

Lemma ND_dset (db : databox) k v : ND db -> ND (dset A db k v).
Proof.
  unfold ND. rewrite names_dset. destruct (dhas A db k) eqn:E; [auto|].
  intros H. apply NoDup_snoc; [assumption|]. intros Hx. apply dhas_In in Hx. congruence.
Qed.

Lemma names_ddel_incl (db : databox) k x : In x (names A (ddel A db k)) -> In x (names A db).
Proof.
  induction db as [|[k0 v0] r IH]; simpl; [tauto|].
  destruct (String.eqb k0 k); simpl; [now right|]. intros [H|H]; [now left|right; now apply IH].
Qed.

Lemma ND_ddel (db : databox) k : ND db -> ND (ddel A db k).
Proof.
  unfold ND. induction db as [|[k0 v0] r IH]; simpl; [auto|].
  intros H. inversion H; subst. destruct (String.eqb k0 k); [assumption|].
  simpl. constructor; [|now apply IH]. intros Hin. apply H2. eapply names_ddel_incl; eauto.
Qed.

Lemma dget_ddel_other (db : databox) k k' : k <> k' -> dget A (ddel A db k) k' = dget A db k'.
Proof.
  intros Hne. induction db as [|[k0 v0] r IH]; simpl; [reflexivity|].
  destruct (String.eqb_spec k0 k) as [->|H0]; simpl.
  - destruct (String.eqb_spec k k'); [contradiction|reflexivity].
  - destruct (String.eqb_spec k0 k'); [reflexivity|assumption].
Qed.

Lemma dget_ddel (db : databox) k k' : ND db ->
  dget A (ddel A db k) k' = if String.eqb k k' then None else dget A db k'.
Proof.
  intros H. destruct (String.eqb_spec k k') as [<-|Hne]; [|now apply dget_ddel_other].
  apply dget_None. unfold ND in H. induction db as [|[k0 v0] r IH]; simpl; [tauto|]. inversion H; subst.
  destruct (String.eqb_spec k0 k) as [->|H0]; [assumption|]. simpl. intros [E|E]; [contradiction|now apply IH].
Qed.

Lemma dget_filter (db : databox) (p : string -> bool) k :
  dget A (filter (fun q => p (fst q)) db) k = if p k then dget A db k else None.
Proof.
  induction db as [|[k0 v0] r IH]; simpl; [now destruct (p k)|].
  destruct (String.eqb_spec k0 k) as [->|E].
  - destruct (p k); simpl; [now rewrite String.eqb_refl|exact IH].
  - destruct (p k0); simpl; [destruct (String.eqb_spec k0 k); [contradiction|]|]; exact IH.
Qed.

Lemma ND_filter (db : databox) (p : string * item -> bool) : ND db -> ND (filter p db).
Proof.
  unfold ND. induction db as [|[k0 v0] r IH]; simpl; [auto|].
  intros H. inversion H; subst. destruct (p (k0, v0)); simpl; [|now apply IH].
  constructor; [|now apply IH]. intros Hin. apply H2. exact (incl_map fst (incl_filter p r) k0 Hin).
Qed.

Lemma dget_mapv (db : databox) (g : item -> item) k :
  dget A (map (fun p => (fst p, g (snd p))) db) k = option_map g (dget A db k).
Proof.
  induction db as [|[k0 v0] r IH]; simpl; [reflexivity|].
  destruct (String.eqb k0 k); [reflexivity|assumption].
Qed.

Lemma names_mapv (db : databox) (g : item -> item) : names A (map (fun p => (fst p, g (snd p))) db) = names A db.
Proof. unfold names. rewrite map_map. reflexivity. Qed.

(* a sequence of assignments: the last assignment to a name wins, so a name that is only ever assigned one item
   holds it *)
Lemma dget_fold_dset (l : list (string * item)) acc k :
  (~ In k (map fst l) -> dget A (fold_left (fun d q => dset A d (fst q) (snd q)) l acc) k = dget A acc k) /\
  (forall it, In (k, it) l -> (forall it', In (k, it') l -> it' = it) ->
     dget A (fold_left (fun d q => dset A d (fst q) (snd q)) l acc) k = Some it).
Proof.
  induction l as [|[k0 it0] l [IH1 IH2]] using rev_ind; [split; [reflexivity|intros it []]|].
  rewrite fold_left_app, map_app. cbn [fold_left map fst snd]. rewrite dget_dset.
  destruct (String.eqb_spec k0 k) as [->|Hne]; split.
  - intros H. exfalso. apply H, in_or_app. right. now left.
  - intros it _ Hfun. f_equal. apply Hfun, in_or_app. right. now left.
  - intros H. apply IH1. intros Hx. apply H, in_or_app. now left.
  - intros it Hin Hfun. apply IH2; [|intros it' H'; apply Hfun, in_or_app; now left].
    apply in_app_or in Hin as [Hin|[E|[]]]; [assumption|congruence].
Qed.

(* [d'] keeps the names of [d] unique and differs from [d] at most on the names in [W]: what the steps of the
   operations below do, hence the operations *)
Definition writes (W : string -> Prop) (d d' : databox) : Prop :=
  (ND d -> ND d') /\ forall k, ~ W k -> dget A d' k = dget A d k.

Lemma writes_refl W d : writes W d d.
Proof. split; auto. Qed.

Lemma writes_dset (W : string -> Prop) d k v : W k -> writes W d (dset A d k v).
Proof. intros Hk. split; [apply ND_dset|]. intros k' Hk'. apply dget_dset_other. congruence. Qed.

Lemma writes_ddel (W : string -> Prop) d k : W k -> writes W d (ddel A d k).
Proof. intros Hk. split; [apply ND_ddel|]. intros k' Hk'. apply dget_ddel_other. congruence. Qed.

Lemma writes_trans W d1 d2 d3 : writes W d1 d2 -> writes W d2 d3 -> writes W d1 d3.
Proof. intros [N1 G1] [N2 G2]. split; [auto|]. intros k Hk. now rewrite G2, G1. Qed.

Lemma fold_writes {S T} (pr : S -> databox) (step : res S -> T -> res S) W l :
  (forall e x, step (Err e) x = Err e) ->
  (forall s x s', In x l -> step (Ok s) x = Ok s' -> writes W (pr s) (pr s')) ->
  forall s s', fold_left step l (Ok s) = Ok s' -> writes W (pr s) (pr s').
Proof.
  intros He Hstep s s'. apply (fold_res_inv step (fun s1 => writes W (pr s) (pr s1)) l He); [|apply writes_refl].
  intros s1 x s2 Hx H1 E. exact (writes_trans _ _ _ _ H1 (Hstep s1 x s2 Hx E)).
Qed.

Lemma remove_fold_writes l (db db' : databox) :
  fold_left (remove_step A) l (Ok db) = Ok db' -> writes (fun k => In k l) db db'.
Proof.
  apply (fold_writes (fun d => d) (remove_step A)); [reflexivity|]. intros d n d' Hn E.
  unfold remove_step in E. destruct (dhas A d n); inversion E. now apply writes_ddel.
Qed.

Lemma remove_fold_spec l : forall db db', ND db -> fold_left (remove_step A) l (Ok db) = Ok db' ->
  forall k, dget A db' k = if smem k l then None else dget A db k.
Proof.
  induction l as [|n l IH]; intros db db' Hnd H k; cbn [fold_left] in H.
  - now inversion H.
  - unfold remove_step at 2 in H. destruct (dhas A db n); [|rewrite fold_res_err in H by reflexivity; discriminate].
    rewrite (IH _ _ (ND_ddel db n Hnd) H), smem_cons, dget_ddel, String.eqb_sym by assumption.
    now destruct (smem k l), (String.eqb k n).
Qed.

Definition sel_resolved (db : databox) (s : sel) : list string := map fst (resolve (names A db) s TgtSame).

Lemma keep_get (db : databox) (s : sel) k : dget A (d_keep A db s) k =
  match s with
  | SelAll => dget A db k
  | _ => if smem k (sel_resolved db s) then dget A db k else None
  end.
Proof. unfold d_keep. destruct s; try reflexivity; apply (dget_filter db (fun x => smem x _) k). Qed.

Lemma keep_ND (db : databox) (s : sel) : ND db -> ND (d_keep A db s).
Proof. unfold d_keep. destruct s; try apply ND_filter; auto. Qed.

Lemma clip_get (db : databox) f a b k : dget A (d_clip A db f a b) k =
  match a, b with
  | None, None => dget A db k
  | _, _ => option_map (clip_item A f a b) (dget A db k)
  end.
Proof. unfold d_clip. destruct a, b; try apply dget_mapv; reflexivity. Qed.

Lemma clip_ND (db : databox) f a b : ND db -> ND (d_clip A db f a b).
Proof. unfold d_clip, ND. destruct a, b; try rewrite names_mapv; auto. Qed.

(* what one selected name becomes *)
Definition lay_result (under : bool) (db other : databox) (n : string) : res (option item) :=
  match dget A db n with
  | Some (INon (ESer ds s)) =>
      if sfreq A s =? -1 then Ok None else
      match dget A other n with
      | Some (INon (ESer _ o)) =>
          if negb (sfreq A s =? sfreq A o) then Ok None else
          match (if under then underlay A s o else overlay A s o) with
          | Ok r => Ok (Some (ISer A (lay_desc A under r ds) r))
          | Err _ => Err 2
          end
      | _ => Err 2
      end
  | _ => Err 2
  end.

Lemma lay_step_result under other d n :
  lay_step A under other (Ok d) n =
    match lay_result under d other n with
    | Ok None => Ok d
    | Ok (Some it) => Ok (dset A d n it)
    | Err e => Err e
    end.
Proof.
  unfold lay_step, lay_result. destruct (dget A d n) as [[[v|ds s]|l]|]; try reflexivity.
  destruct (sfreq A s =? -1); [reflexivity|].
  destruct (dget A other n) as [[[v|d2 o]|l]|]; try reflexivity.
  destruct (negb (sfreq A s =? sfreq A o)); [reflexivity|].
  destruct (if under then underlay A s o else overlay A s o); reflexivity.
Qed.

(* one step: the key order does not change, and only the selected name is rewritten *)
Lemma lay_step_spec under other d n d' : lay_step A under other (Ok d) n = Ok d' ->
  names A d' = names A d /\
  forall k, dget A d' k = if String.eqb n k
                          then match lay_result under d other n with Ok (Some it) => Some it | _ => dget A d n end
                          else dget A d k.
Proof.
  rewrite lay_step_result. destruct (lay_result under d other n) as [[it|]|e] eqn:R; intros E; inversion E; subst.
  - split; [|intros k; apply dget_dset]. rewrite names_dset. unfold dhas, lay_result in *.
    now destruct (dget A d n).
  - split; [reflexivity|]. intros k. now destruct (String.eqb_spec n k) as [<-|].
Qed.

Lemma lay_fold_writes under other l (db db' : databox) :
  fold_left (lay_step A under other) l (Ok db) = Ok db' -> writes (fun k => In k l) db db'.
Proof.
  apply (fold_writes (fun d => d) (lay_step A under other)); [reflexivity|]. intros d n d' Hn E.
  apply lay_step_spec in E as [N G]. split; [unfold ND; now rewrite N|].
  intros k Hk. rewrite G. destruct (String.eqb_spec n k); [subst; contradiction|reflexivity].
Qed.

Lemma lay_fold_spec under other l : forall db db', NoDup l ->
  fold_left (lay_step A under other) l (Ok db) = Ok db' ->
  names A db' = names A db /\
  forall k, dget A db' k =
    if smem k l then match lay_result under db other k with Ok (Some it) => Some it | _ => dget A db k end
    else dget A db k.
Proof.
  induction l as [|n l IH]; intros db db' Hl H; cbn [fold_left] in H.
  - inversion H; subst. now split.
  - inversion Hl as [|? ? Hn Hl']; subst. apply smem_false in Hn.
    destruct (lay_step A under other (Ok db) n) as [d1|e] eqn:E; [|rewrite fold_res_err in H by reflexivity; discriminate].
    apply lay_step_spec in E as [N1 G1]. apply IH in H as [N2 G2]; [|assumption].
    split; [congruence|]. intros k. rewrite G2, smem_cons, String.eqb_sym.
    destruct (String.eqb_spec n k) as [<-|Hne]; cbn [orb].
    + now rewrite Hn, G1, String.eqb_refl.
    + apply String.eqb_neq in Hne. unfold lay_result. now rewrite G1, Hne.
Qed.

(* the source renamed to k, if any *)
Fixpoint tgt_src (ps : list (string * string)) (k : string) : option string :=
  match ps with
  | [] => None
  | (s, t) :: r => if String.eqb t k then Some s else tgt_src r k
  end.

Lemma tgt_src_None ps k : tgt_src ps k = None <-> ~ In k (map snd ps).
Proof.
  induction ps as [|[s t] r IH]; simpl; [tauto|].
  destruct (String.eqb_spec t k) as [->|Hne]; [|tauto].
  split; [discriminate|]. intros H. contradiction H. now left.
Qed.

Lemma tgt_src_Some ps k s : tgt_src ps k = Some s -> In (s, k) ps.
Proof.
  induction ps as [|[s0 t0] r IH]; simpl; [discriminate|].
  destruct (String.eqb_spec t0 k) as [->|Hne]; [intros E; inversion E; now left|intros E; right; now apply IH].
Qed.

Lemma tgt_src_app ps qs k :
  tgt_src (ps ++ qs) k = match tgt_src ps k with Some s => Some s | None => tgt_src qs k end.
Proof. induction ps as [|[s t] r IH]; simpl; [reflexivity|]. now destruct (String.eqb t k). Qed.

Lemma rename_step_ok d p d' : rename_step A (Ok d) p = Ok d' ->
  exists v, dget A d (fst p) = Some v /\ d' = dset A (ddel A d (fst p)) (snd p) v.
Proof. unfold rename_step. destruct (dget A d (fst p)) as [v|]; [|discriminate]. intros E. inversion E. now exists v. Qed.

(* names outside the sources and the targets are never touched (no hypothesis on the pairs) *)
Lemma rename_pairs_writes ps (db db' : databox) : rename_pairs A db ps = Ok db' ->
  writes (fun k => In k (map fst ps) \/ In k (map snd ps)) db db'.
Proof.
  apply (fold_writes (fun d => d) (rename_step A)); [reflexivity|]. intros d p d' Hp E.
  apply rename_step_ok in E as (v & _ & ->).
  eapply writes_trans; [apply writes_ddel|apply writes_dset]; [left|right]; now apply in_map.
Qed.

(* injective renaming onto names that are not sources: every target holds its source's item,
   the sources disappear, everything else is untouched.  By induction on the pairs from the LAST one, so that the
   induction hypothesis speaks of the databox the run started from. *)
Lemma rename_pairs_spec ps : forall db, ND db ->
  NoDup (map fst ps) -> NoDup (map snd ps) ->
  (forall x, In x (map snd ps) -> ~ In x (map fst ps)) ->
  (forall x, In x (map fst ps) -> In x (names A db)) ->
  exists db', rename_pairs A db ps = Ok db' /\
    forall k, dget A db' k = match tgt_src ps k with
                             | Some s => dget A db s
                             | None => if smem k (map fst ps) then None else dget A db k
                             end.
Proof.
  intros db Hnd. induction ps as [|[s t] ps IH] using rev_ind; intros Hs Ht Hdis Hin.
  - exists db. now split.
  - rewrite !map_app in *. cbn [map fst snd] in *.
    apply NoDup_remove in Hs as [Hs Hs']. apply NoDup_remove in Ht as [Ht Ht']. rewrite app_nil_r in *.
    destruct IH as (d1 & E1 & G1); try assumption.
    { intros x Hx Hx'. apply (Hdis x); apply in_or_app; now left. }
    { intros x Hx. apply Hin, in_or_app. now left. }
    assert (Hst : ~ In s (map snd ps)).
    { intros Hx. apply (Hdis s); apply in_or_app; [now left|right; now left]. }
    assert (Es : dget A d1 s = dget A db s).
    { rewrite G1, (proj2 (tgt_src_None ps s) Hst). apply smem_false in Hs'. now rewrite Hs'. }
    destruct (dget A db s) as [v|] eqn:Ev.
    2:{ apply dget_None in Ev. exfalso. apply Ev, Hin, in_or_app. right. now left. }
    exists (dset A (ddel A d1 s) t v). split.
    + unfold rename_pairs in *. rewrite fold_left_app, E1. cbn [fold_left rename_step fst snd]. now rewrite Es.
    + intros k. rewrite dget_dset, dget_ddel, G1, tgt_src_app by now apply (rename_pairs_writes _ _ _ E1).
      cbn [tgt_src]. unfold smem. rewrite existsb_app. fold (smem k (map fst ps)). cbn [existsb]. rewrite orb_false_r.
      destruct (String.eqb_spec t k) as [<-|Htk].
      * now rewrite (proj2 (tgt_src_None ps t) Ht').
      * rewrite (String.eqb_sym k s). destruct (tgt_src ps k) as [s'|] eqn:Ek.
        -- apply tgt_src_Some in Ek. destruct (String.eqb_spec s k) as [<-|]; [|reflexivity].
           exfalso. apply Hst. apply in_map_iff. now exists (s', s).
        -- now destruct (String.eqb s k), (smem k (map fst ps)).
Qed.

Lemma resolve_sources_in ctx s t x : In x (map fst (resolve ctx s t)) -> In x ctx.
Proof.
  unfold resolve. intros H. apply in_map_iff in H as ([a b] & <- & H).
  apply filter_In in H as [_ H]. now apply smem_In in H.
Qed.

Lemma combine_fst_snd {X Y} (l : list (X * Y)) : combine (map fst l) (map snd l) = l.
Proof. induction l as [|[a b] r IH]; simpl; [reflexivity|now rewrite IH]. Qed.

Lemma resolve_lists ctx (ps : list (string * string)) : (forall x, In x (map fst ps) -> In x ctx) ->
  resolve ctx (SelList (map fst ps)) (TgtList (map snd ps)) = ps.
Proof.
  intros H. unfold resolve. cbn [sel_names]. rewrite combine_fst_snd. apply filter_all.
  intros [a b] Hin. apply smem_In. apply H. apply in_map_iff. now exists (a, b).
Qed.

(* the names a selection resolves to: the selected names that are keys *)
Lemma sel_resolved_filter (db : databox) s :
  sel_resolved db s = filter (fun n => smem n (names A db)) (sel_names (names A db) s).
Proof.
  unfold sel_resolved, resolve. induction (sel_names (names A db) s) as [|a l IH]; simpl; [reflexivity|].
  destruct (smem a (names A db)); simpl; now rewrite IH.
Qed.

Lemma smem_filter k (p : string -> bool) l : smem k (filter p l) = smem k l && p k.
Proof.
  induction l as [|a l IH]; simpl; [reflexivity|]. destruct (p a) eqn:Ea; simpl; rewrite IH.
  - destruct (String.eqb_spec k a) as [->|]; [now rewrite Ea|reflexivity].
  - destruct (String.eqb_spec k a) as [->|]; [rewrite Ea; now rewrite andb_false_r|reflexivity].
Qed.

(* copy() without arguments returns the databox; otherwise it renames the resolved pairs and keeps the targets *)
Lemma d_copy_cases (db : databox) s t :
  (s = SelAll /\ t = TgtSame /\ d_copy A db s t = Ok db) \/
  d_copy A db s t = (let ps := resolve (names A db) s t in
                     match d_rename A db (SelList (map fst ps)) (TgtList (map snd ps)) with
                     | Err e => Err e
                     | Ok d1 => Ok (d_keep A d1 (SelList (map snd ps)))
                     end).
Proof. destruct s, t; (now left) || (now right). Qed.

Definition merge_val (st : strategy) (cur v : item) : res item :=
  match st with
  | MStack => merge_stack A cur v
  | MReplace => Ok v
  | MDiscard | MReport _ => Ok cur
  end.

(* one step rewrites at most the key of the pair, which comes to hold the strategy's choice when it was there
   and the pair's item when it was not *)
Lemma merge_step_spec st d dup k v d1 dup1 : merge_step A st (Ok (d, dup)) (k, v) = Ok (d1, dup1) ->
  writes (eq k) d d1 /\
  exists it, dget A d1 k = Some it /\ match dget A d k with Some cur => merge_val st cur v = Ok it | None => it = v end.
Proof.
  unfold merge_step, merge_val. cbn [fst snd]. intros E. destruct (dget A d k) as [cur|] eqn:Ec.
  - destruct st; [destruct (merge_stack A cur v) as [it|]; [|discriminate]| | |]; inversion E; subst.
    + split; [now apply writes_dset|]. exists it. now rewrite dget_dset_same.
    + split; [now apply writes_dset|]. exists v. now rewrite dget_dset_same.
    + split; [apply writes_refl|]. now exists cur.
    + split; [apply writes_refl|]. now exists cur.
  - inversion E; subst. split; [now apply writes_dset|]. exists v. now rewrite dget_dset_same.
Qed.

Lemma merge_fold_writes st l (db : databox) dup db' dup' :
  fold_left (merge_step A st) l (Ok (db, dup)) = Ok (db', dup') -> writes (fun k => In k (map fst l)) db db'.
Proof.
  apply (fold_writes fst (merge_step A st) _ l (fun _ _ => eq_refl)). intros [d b] [k v] [d1 b1] Hin E.
  apply (in_map fst) in Hin. apply merge_step_spec in E as [[N G] _]. split; [exact N|].
  intros k' Hk'. apply G. now intros <-.
Qed.

Lemma concat_ND_fold st l : forall db dup db' dup', ND db ->
  fold_left (merge_step A st) l (Ok (db, dup)) = Ok (db', dup') -> ND db'.
Proof. intros db dup db' dup' Hnd H. now apply (merge_fold_writes _ _ _ _ _ _ H). Qed.

(* the value returned by d_merge is the databox the loop ends with *)
Lemma d_merge_inv (db : databox) others st db' : d_merge A db others st = Ok db' ->
  exists dup, fold_left (merge_step A st) (List.concat others) (Ok (db, false)) = Ok (db', dup).
Proof.
  unfold d_merge. destruct (fold_left (merge_step A st) (List.concat others) (Ok (db, false))) as [[d dup]|e]; [|discriminate].
  intros H. exists dup. f_equal.
  destruct st; try (inversion H; reflexivity). destruct raises; [destruct dup; [discriminate|]|]; now inversion H.
Qed.

(* what key k holds after merging one databox [other] into [db] *)
Definition merged (st : strategy) (db other : databox) (k : string) (after : option item) : Prop :=
  match dget A other k, dget A db k with
  | None, _ => after = dget A db k
  | Some v, None => after = Some v
  | Some v, Some cur => exists it, merge_val st cur v = Ok it /\ after = Some it
  end.

Lemma merge_fold_spec st (other : databox) : forall db dup db' dup', NoDup (names A other) ->
  fold_left (merge_step A st) other (Ok (db, dup)) = Ok (db', dup') ->
  forall k, merged st db other k (dget A db' k).
Proof.
  induction other as [|[k0 v] r IH]; intros db dup db' dup' Hnd H k; cbn [fold_left] in H.
  - inversion H; subst. unfold merged. reflexivity.
  - inversion Hnd as [|? ? Hn1 Hn2]; subst.
    destruct (merge_step A st (Ok (db, dup)) (k0, v)) as [[d1 dup1]|e] eqn:E;
      [|rewrite fold_res_err in H by reflexivity; discriminate].
    apply merge_step_spec in E as [[_ G1] (it & Eit & Hit)].
    unfold merged. cbn [dget]. destruct (String.eqb_spec k0 k) as [->|Hne].
    + (* this key: the later steps do not touch it *)
      rewrite (proj2 (merge_fold_writes _ _ _ _ _ _ H) k Hn1), Eit.
      destruct (dget A db k) as [cur|]; [now exists it|now subst].
    + (* another key: this step does not touch it *)
      rewrite <- (G1 k Hne). exact (IH _ _ _ _ Hn2 H k).
Qed.

Definition touches (rs : dregs A) (o : dop) (n : string) : Prop :=
  match o with
  | DCopy _ _ _ _ => True                       (* the destination is a new databox: C19_copy_spec *)
  | DRename d s t => let ps := resolve (names A (getd A rs d)) s t in In n (map fst ps) \/ In n (map snd ps)
  | DRemove d s => s <> SelAll /\ In n (sel_resolved (getd A rs d) s)
  | DKeep d s => s <> SelAll /\ ~ In n (sel_resolved (getd A rs d) s)
  | DLay d src _ ns => In n (lay_names A (getd A rs d) (getd A rs src) ns)
  | DClip d f a b => exists ds s, dget A (getd A rs d) n = Some (ISer A ds s) /\ sfreq A s = f
  | DPrepend d src f e => In n (lay_names A (getd A rs d) (d_clip A (getd A rs src) f None (Some e)) None)
  | DMerge d srcs st => In n (map fst (List.concat (map (getd A rs) srcs)))
  end.

Definition AllND (rs : dregs A) : Prop := Forall ND rs.

Lemma getd_ND rs i : AllND rs -> ND (getd A rs i).
Proof.
  intros H. unfold getd. destruct (Nat.ltb_spec i (length rs)).
  - apply Forall_forall with (x := nth i rs []) in H; [assumption|now apply nth_In].
  - rewrite nth_overflow by assumption. constructor.
Qed.

(* an operation keeps the names of its destination unique and leaves alone what it does not select *)
Lemma d_copy_ND (db db' : databox) s t : ND db -> d_copy A db s t = Ok db' -> ND db'.
Proof.
  intros Hs H. destruct (d_copy_cases db s t) as [(_ & _ & E)|E]; rewrite E in H; [now inversion H; subst|].
  cbv zeta in H. destruct (d_rename A _ _ _) as [d1|] eqn:E1; [|discriminate]. injection H as <-.
  apply (keep_ND d1 (SelList _)). now apply (rename_pairs_writes _ _ _ E1).
Qed.

Lemma d_remove_writes (db db' : databox) s : d_remove A db s = Ok db' ->
  writes (fun k => s <> SelAll /\ In k (sel_resolved db s)) db db'.
Proof.
  unfold d_remove. intros H. destruct s; [inversion H; apply writes_refl| |];
    (destruct (remove_fold_writes _ _ _ H) as [N G]; split; [exact N|]; intros k Hk; apply G; intros Hx; apply Hk;
     split; [discriminate|exact Hx]).
Qed.

Lemma d_keep_writes (db : databox) s : writes (fun k => s <> SelAll /\ ~ In k (sel_resolved db s)) db (d_keep A db s).
Proof.
  split; [apply keep_ND|]. intros k Hk. rewrite keep_get.
  destruct s; try reflexivity;
    (destruct (smem k _) eqn:E; [reflexivity|]; exfalso; apply Hk; split; [discriminate|now apply smem_false]).
Qed.

Lemma d_clip_writes (db : databox) f a b :
  writes (fun k => exists ds s, dget A db k = Some (ISer A ds s) /\ sfreq A s = f) db (d_clip A db f a b).
Proof.
  split; [apply clip_ND|]. intros k Hk. rewrite clip_get.
  assert (E : option_map (clip_item A f a b) (dget A db k) = dget A db k).
  { destruct (dget A db k) as [[[v|ds s]|l]|] eqn:E; try reflexivity. cbn [option_map clip_item].
    destruct (Z.eqb_spec (sfreq A s) f) as [Ef|]; [|reflexivity]. exfalso. apply Hk. now exists ds, s. }
  destruct a, b; try exact E. reflexivity.
Qed.

Lemma dexec_writes (rs : dregs A) (o : dop) (db' : databox) : dexec A rs o = Ok db' ->
  match o with
  | DCopy _ src _ _ => ND (getd A rs src) -> ND db'
  | _ => writes (touches rs o) (getd A rs (op_dst o)) db'
  end.
Proof.
  destruct o; cbn [dexec op_dst touches]; intros H.
  - intros Hs. exact (d_copy_ND _ _ _ _ Hs H).
  - now apply rename_pairs_writes.
  - now apply d_remove_writes.
  - inversion H. apply d_keep_writes.
  - now apply (lay_fold_writes _ _ _ _ _ H).
  - inversion H. apply d_clip_writes.
  - now apply (lay_fold_writes _ _ _ _ _ H).
  - apply d_merge_inv in H as [dup H]. now apply (merge_fold_writes _ _ _ _ _ _ H).
Qed.

Theorem dexec_ND (rs : dregs A) (o : dop) (d : databox) : AllND rs -> dexec A rs o = Ok d -> ND d.
Proof. intros Hall H. apply dexec_writes in H. destruct o; apply H; now apply getd_ND. Qed.

Lemma setd_ND rs i d : AllND rs -> ND d -> AllND (setd A rs i d).
Proof.
  intros H Hd. revert i. unfold AllND in *. induction H as [|x r Hx Hr IH]; intros i; simpl; [constructor|].
  destruct i; constructor; try assumption. apply IH.
Qed.

(* what every successful operation preserves holds after the history *)
Lemma drun_inv (P : dregs A -> Prop) ops :
  (forall rs o d, In o ops -> P rs -> dexec A rs o = Ok d -> P (setd A rs (op_dst o) d)) ->
  forall rs, P rs -> P (fst (drun A rs ops)).
Proof.
  induction ops as [|o r IH]; intros Hstep rs H; cbn [drun]; [assumption|].
  destruct (dexec A rs o) as [d|e] eqn:E; [|assumption].
  specialize (IH (fun rs o d Ho => Hstep rs o d (or_intror Ho)) (setd A rs (op_dst o) d)).
  destruct (drun A (setd A rs (op_dst o) d) r) as [rs2 outs]. apply IH. apply Hstep; [now left|assumption|assumption].
Qed.

Lemma getd_setd_same rs i d : (i < length rs)%nat -> getd A (setd A rs i d) i = d.
Proof.
  revert i. induction rs as [|x r IH]; intros i Hi; simpl in *; [lia|].
  destruct i; [reflexivity|]. unfold getd in *. simpl. apply IH. lia.
Qed.

Lemma getd_setd_other rs i j d : i <> j -> getd A (setd A rs i d) j = getd A rs j.
Proof.
  revert i j. induction rs as [|x r IH]; intros i j Hne; simpl; [reflexivity|].
  destruct i, j; try reflexivity; try congruence. unfold getd in *. simpl. apply IH. congruence.
Qed.

Lemma setd_length rs i d : length (setd A rs i d) = length rs.
Proof. revert i. induction rs as [|x r IH]; intros i; simpl; [reflexivity|]. destruct i; simpl; auto. Qed.

(* name n of register r is outside the selection of every operation of the history *)
Fixpoint untouched (rs : dregs A) (ops : list dop) (r : nat) (n : string) : Prop :=
  match ops with
  | [] => True
  | o :: tl => (op_dst o = r -> ~ touches rs o n) /\
               match dexec A rs o with
               | Ok d => untouched (setd A rs (op_dst o) d) tl r n
               | Err _ => True
               end
  end.

End DataboxProofs.

Section SlateProofs.
Variable A : Arith.
Notation V := (car A).
Notation series := (series A).
Notation databox := (databox A).
Notation item := (item A).
Hypothesis miss_law : forall x : V, is_miss A x = true -> x = miss A.

(* the value of variant k of a databox item at period t: series by period, numbers constant,
   lists and series variants consumed exhaust-then-last; missing when there is nothing *)
Definition raw_value (it : option item) (k : nat) (t : Z) : V :=
  match it with
  | None => miss A
  | Some (INon (EScal v)) => v
  | Some (INon (ESer _ s)) => ser_val A s k t
  | Some (IList []) => miss A
  | Some (IList l) => match etl l k (EScal (miss A)) with EScal v => v | ESer _ _ => miss A end
  end.

(* what the round trip must return for name nm, variant k, period t of the span starting at from:
   the input value, cleared outside the base columns when clipping is requested, replaced by the declared
   fallback only where it is missing, and by the declared overwrite everywhere *)
Definition expected (db : databox) (o : sopts A) (nm : string) (k : nat) (from t : Z) : V :=
  let v0 := raw_value (dget A db nm) k t in
  let v1 := if o_clip_base o then (if nmem (Z.to_nat (t - from)) (o_base o) then v0 else miss A) else v0 in
  let v2 := match flookup A (o_fallbacks o) nm with
            | Some f => if is_miss A v1 then fb_at A f k else v1
            | None => v1
            end in
  match flookup A (o_overwrites o) nm with Some f => fb_at A f k | None => v2 end.

Lemma all_ok_map_nth {X T} (f : X -> res T) l : forall xs, all_ok (map f l) = Ok xs ->
  forall i dx dt, (i < length l)%nat -> f (nth i l dx) = Ok (nth i xs dt).
Proof.
  induction l as [|x r IH]; intros xs H i dx dt Hi; cbn [map all_ok length] in *; [lia|].
  destruct (f x) as [y|] eqn:Ex; [|discriminate]. destruct (all_ok (map f r)) as [ys|]; [|discriminate].
  inversion H; subst. destruct i; [exact Ex|]. apply (IH ys eq_refl). lia.
Qed.

Lemma item_vec_spec (db : databox) fr from n k nm vec :
  item_vec A fr from n k (dget A db nm) = Ok vec ->
  vec = map (raw_value (dget A db nm) k) (zrange from (from + Z.of_nat n)).
Proof.
  assert (R : forall v : V, repeat v n = map (fun _ => v) (zrange from (from + Z.of_nat n))).
  { intros v. rewrite map_const_repeat, zrange_length. f_equal. lia. }
  unfold item_vec, raw_value. destruct (dget A db nm) as [[[v|ds s]|[|e0 l0]]|]; cbn [elem_vec];
    try (intros H; inversion H; subst; apply R).
  - destruct (s_start s) as [st|] eqn:Es.
    + destruct (s_freq s =? fr); [|discriminate]. intros H; now inversion H.
    + intros H; inversion H; subst. rewrite R. apply map_ext. intros t.
      unfold ser_val. rewrite (row_at_empty A s _ Es). unfold missrow. symmetry. apply nth_repeat.
  - destruct (etl (e0 :: l0) k (EScal (miss A))) as [v|ds s]; [|discriminate].
    intros H; inversion H; subst. apply R.
Qed.

Lemma post_vec_length (o : sopts A) nm k vec : length (post_vec A o nm k vec) = length vec.
Proof.
  unfold post_vec.
  destruct (flookup A (o_overwrites o) nm); [rewrite map_length|];
    (destruct (flookup A (o_fallbacks o) nm); [rewrite map_length|]);
    (destruct (o_clip_base o); [rewrite map_length, combine_length, seq_length; lia|reflexivity]).
Qed.

(* in each configuration of the options post_vec is a composition of maps, and nth goes through them *)
Lemma post_vec_nth (o : sopts A) nm k vec j : (j < length vec)%nat ->
  nth j (post_vec A o nm k vec) (miss A) =
    (let v0 := nth j vec (miss A) in
     let v1 := if o_clip_base o then (if nmem j (o_base o) then v0 else miss A) else v0 in
     let v2 := match flookup A (o_fallbacks o) nm with
               | Some f => if is_miss A v1 then fb_at A f k else v1
               | None => v1
               end in
     match flookup A (o_overwrites o) nm with Some f => fb_at A f k | None => v2 end).
Proof.
  intros Hj. unfold post_vec. cbv zeta.
  destruct (flookup A (o_overwrites o) nm), (flookup A (o_fallbacks o) nm), (o_clip_base o);
    repeat (rewrite nth_map_in with (d' := miss A) by (rewrite ?map_length, ?combine_length, ?seq_length; lia));
    try (rewrite nth_map_in with (d' := (O, miss A)) by (rewrite combine_length, seq_length; lia);
         rewrite combine_nth, seq_nth by (rewrite ?seq_length; lia));
    reflexivity.
Qed.

Lemma slate_cell_spec (db : databox) nms fr from n (o : sopts A) sl k q j :
  from_databox A db (Some nms) fr from n o = Ok sl ->
  (k < o_nvar o)%nat -> (q < length nms)%nat -> (j < n)%nat ->
  slate_cell A sl k q j = expected db o (nth q nms ""%string) k from (from + Z.of_nat j).
Proof.
  unfold from_databox. destruct nms as [|n0 nr] eqn:En; [simpl; lia|]. rewrite <- En. clear En n0 nr.
  intros H Hk Hq Hj.
  apply all_ok_map_nth with (i := k) (dx := O) (dt := []) in H; [|now rewrite seq_length].
  rewrite seq_nth in H by assumption. cbn [Nat.add] in H. unfold slate_variant in H.
  apply all_ok_map_nth with (i := q) (dx := ""%string) (dt := []) in H; [|assumption].
  destruct (item_vec A fr from n k (dget A db (nth q nms ""%string))) as [vec|e] eqn:Ev; [|discriminate].
  inversion H as [Hrow]. apply item_vec_spec in Ev as ->.
  unfold slate_cell. rewrite <- Hrow, post_vec_nth by (rewrite map_length, zrange_length; lia).
  rewrite nth_map_in with (d' := 0), zrange_nth by (rewrite ?zrange_length; lia).
  unfold expected. replace (Z.to_nat (from + Z.of_nat j - from)) with j by lia. reflexivity.
Qed.

(* names may repeat: the last row of a name wins, so some row of it does *)
Lemma to_databox_fold sl fr from n nvar trimmed (l : list string) (acc : databox) nm :
  let res := fold_left (fun acc p => dset A acc (snd p) (ISer A ""%string (slate_series A sl fr from n nvar trimmed (fst p))))
                       (combine (seq 0 (length l)) l) acc in
  (In nm l -> exists q, (q < length l)%nat /\ nth q l ""%string = nm /\
                        dget A res nm = Some (ISer A ""%string (slate_series A sl fr from n nvar trimmed q))) /\
  (~ In nm l -> dget A res nm = dget A acc nm).
Proof.
  induction l as [|x l [IH1 IH2]] using rev_ind; [split; [intros []|reflexivity]|].
  rewrite app_length, seq_app, combine_app', fold_left_app by now rewrite seq_length.
  cbn [length seq combine fold_left Nat.add fst snd]. rewrite dget_dset.
  destruct (String.eqb_spec x nm) as [->|Hne]; split.
  - intros _. exists (length l). split; [lia|]. rewrite app_nth2, Nat.sub_diag by lia. now split.
  - intros H. exfalso. apply H, in_or_app. right. now left.
  - intros H. apply in_app_or in H as [H|[H|[]]]; [|congruence]. destruct (IH1 H) as (q & Hq & Hnth & Hget).
    exists q. split; [lia|]. rewrite app_nth1 by assumption. now split.
  - intros H. apply IH2. intros Hx. apply H, in_or_app. now left.
Qed.

(* the series written for row q: well formed, nvar variants, and period by period the cells of the row *)
Lemma slate_series_spec sl fr from n nvar trimmed q :
  let s := slate_series A sl fr from n nvar trimmed q in
  WF A s /\ s_nv s = nvar /\ (trimmed = true -> Trimmed A s) /\
  forall t k, (k < nvar)%nat ->
    cell A s t k = if (from <=? t) && (t <? from + Z.of_nat n) then slate_cell A sl k q (Z.to_nat (t - from)) else miss A.
Proof.
  unfold slate_series. set (s0 := mkSeries fr (Some from) nvar _).
  assert (Hwf : WF A s0).
  { split; [|discriminate]. apply rows_ok_map. intros j _. now rewrite map_length, seq_length. }
  assert (Hcell : forall t k, (k < nvar)%nat ->
            cell A s0 t k = if (from <=? t) && (t <? from + Z.of_nat n) then slate_cell A sl k q (Z.to_nat (t - from)) else miss A).
  { intros t k Hk. unfold cell, s0, missrow. rewrite row_at_rows, map_length, seq_length.
    destruct (Z.leb_spec from t), (Z.leb_spec t (from + Z.of_nat n - 1)), (Z.ltb_spec t (from + Z.of_nat n));
      try lia; cbn [andb]; try apply nth_repeat.
    now rewrite nth_map_seq, nth_map_seq by lia. }
  cbv zeta. destruct trimmed.
  - split; [now apply trim_WF|]. split; [apply trim_nv|]. split; [intros _; now apply trim_Trimmed|].
    intros t k Hk. unfold cell. rewrite row_at_trim by assumption. now apply Hcell.
  - split; [assumption|]. split; [reflexivity|]. split; [discriminate|exact Hcell].
Qed.

(* Dataslate.to_databox into an empty databox: every name of the slate comes back as the series of one of its rows *)
Lemma to_databox_spec sl nms fr from n nvar trimmed :
  let db' := to_databox A sl nms fr from n nvar trimmed [] in
  (forall nm, In nm nms ->
     exists s q, nth q nms ""%string = nm /\ (q < length nms)%nat /\
       dget A db' nm = Some (ISer A ""%string s) /\ WF A s /\ s_nv s = nvar /\ (trimmed = true -> Trimmed A s) /\
       forall t k, (k < nvar)%nat ->
         cell A s t k = if (from <=? t) && (t <? from + Z.of_nat n)
                        then slate_cell A sl k q (Z.to_nat (t - from)) else miss A)
  /\ (forall nm, ~ In nm nms -> dget A db' nm = None).
Proof.
  unfold to_databox. split; intros nm Hnm; destruct (to_databox_fold sl fr from n nvar trimmed nms [] nm) as [H1 H2].
  - destruct (H1 Hnm) as (q & Hq & Hnth & Hget).
    eexists. exists q. split; [exact Hnth|]. split; [exact Hq|]. split; [exact Hget|]. apply slate_series_spec.
  - now apply H2.
Qed.

(* names=None is the same as naming every key of the databox *)
Lemma slate_roundtrip_all_names (db : databox) fr from n (o : sopts A) trimmed :
  slate_roundtrip A db None fr from n o trimmed = slate_roundtrip A db (Some (names A db)) fr from n o trimmed.
Proof. reflexivity. Qed.

Lemma nth_skipn' {T} (l : list T) j i d : nth i (skipn j l) d = nth (j + i) l d.
Proof.
  revert l. induction j as [|j IH]; intros l; [reflexivity|]. destruct l as [|x r]; [now destruct i|]. apply IH.
Qed.

Lemma nth_firstn' {T} (l : list T) m i d : (i < m)%nat -> nth i (firstn m l) d = nth i l d.
Proof.
  revert l i. induction m as [|m IH]; intros l i Hi; [lia|]. destruct l as [|x r]; [reflexivity|].
  destruct i; [reflexivity|]. simpl. apply IH. lia.
Qed.

Lemma slate_cell_map (g : list V -> list V) sl k q t :
  g [] = [] -> slate_cell A (map (map g) sl) k q t = nth t (g (nth q (nth k sl []) [])) (miss A).
Proof.
  intros Hg. unfold slate_cell.
  change (@nil (list V)) with (map g (@nil (list V))) at 1. rewrite map_nth.
  rewrite <- Hg at 1. now rewrite map_nth.
Qed.

End SlateProofs.
