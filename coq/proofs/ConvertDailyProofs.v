(* C12, DAILY source / target: calendar membership, aggregation groups, placement and round trips. *)
From Coq Require Import ZArith List Bool Lia.
From Verif Require Import proofs.DatesProofs lib.Arith lib.Calendar model.Series model.SeriesOps model.Convert
     model.ConvertDaily proofs.SeriesProofs proofs.ConvertProofs.
Import ListNotations.
Open Scope Z_scope.

(* months of a regular period: those of the Dates model.  reg_freq f unfolds to is_regular_freq f and
   lp_last_month f t to seg_end_month f (t mod f + 1), so the lemmas of DatesProofs apply as they are *)
Lemma lp_first_seg f t : lp_first_month f t = seg_start_month f (t mod f + 1).
Proof. unfold lp_first_month, seg_start_month. rewrite Z.add_simpl_r. reflexivity. Qed.

Lemma lp_months f t : reg_freq f = true ->
  1 <= lp_first_month f t /\ lp_first_month f t <= lp_last_month f t /\ lp_last_month f t <= 12.
Proof.
  intros R. rewrite lp_first_seg.
  destruct (seg_months_range f (t mod f + 1) R (seg_bounds f t (regular_pos f R))) as (M1 & M2 & _).
  change (lp_last_month f t) with (seg_end_month f (t mod f + 1)). lia.
Qed.

(* a date lies between the first day of month m0 and the last day of month m1 of year y
   exactly when its year is y and its month is in m0..m1 *)
Lemma month_span y m0 m1 Y M D : 1 <= m0 -> m0 <= m1 -> m1 <= 12 ->
  1 <= M <= 12 -> 1 <= D <= days_in_month Y M ->
  (ord_of_ymd y m0 1 <= ord_of_ymd Y M D <= ord_of_ymd y m1 (days_in_month y m1)
   <-> Y = y /\ m0 <= M <= m1).
Proof.
  intros H0 H01 H1 HM HD.
  pose proof (dim_range y m0) as D0. pose proof (dim_range y m1) as D1.
  split.
  - intros [Hlo Hhi].
    pose proof (ord_of_ymd_in_year y m0 1 ltac:(lia) ltac:(lia)) as R0.
    pose proof (ord_of_ymd_in_year y m1 (days_in_month y m1) ltac:(lia) ltac:(lia)) as R1.
    pose proof (ord_of_ymd_in_year Y M D HM HD) as R.
    assert (EY : Y = y).
    { rewrite <- (year_of_ord_unique (ord_of_ymd Y M D) Y R). apply year_of_ord_unique. lia. }
    subst Y. split; [reflexivity|]. unfold ord_of_ymd in Hlo, Hhi.
    split.
    + destruct (Z_lt_le_dec M m0) as [L|L]; [exfalso|assumption].
      pose proof (dbm_strict y M m0). lia.
    + destruct (Z_lt_le_dec m1 M) as [L|L]; [exfalso|assumption].
      pose proof (dbm_strict y m1 M). lia.
  - intros [-> [Hlo Hhi]]. unfold ord_of_ymd. split.
    + destruct (Z.eq_dec M m0) as [->|]; [lia|]. pose proof (dbm_strict y m0 M). lia.
    + destruct (Z.eq_dec M m1) as [->|]; [lia|]. pose proof (dbm_strict y M m1). lia.
Qed.

Lemma ymd_facts n :
  ord_of_ymd (year_of_ord n) (month_of_ord n) (day_of_ord n) = n /\
  1 <= month_of_ord n <= 12 /\ 1 <= day_of_ord n <= days_in_month (year_of_ord n) (month_of_ord n).
Proof.
  pose proof (ord_of_ymd_of_ord n) as H. unfold month_of_ord, day_of_ord.
  destruct (ymd_of_ord n) as [[y m] d]. cbn [fst snd]. destruct H as (H1 & H2 & H3 & ->). auto.
Qed.

(* membership: day n belongs to period t of frequency f  <->  n lies between its first and last day *)
Theorem daily_membership f n t : reg_freq f = true ->
  (low_of_day f n = t <-> day_start f t <= n <= day_end f t).
Proof.
  intros R. destruct (ymd_facts n) as (En & HM & HD).
  destruct (lp_months f t R) as (L0 & L01 & L1).
  unfold day_start, day_end. rewrite <- En at 2 3.
  rewrite (month_span (t / f) (lp_first_month f t) (lp_last_month f t)) by assumption.
  unfold low_of_day, lp_first_month, lp_last_month.
  destruct (regular_widths f R) as [[-> W] | [[-> W] | [[-> W] | [-> W]]]]; rewrite W; clear W;
    Z.div_mod_to_equations; lia.
Qed.

(* every period has at least 28 days; its days lie in its calendar year *)
Lemma day_start_le_end f t : reg_freq f = true -> day_start f t + 27 <= day_end f t.
Proof.
  intros R. destruct (lp_months f t R) as (L0 & L01 & L1).
  unfold day_start, day_end, ord_of_ymd.
  pose proof (dim_range (t / f) (lp_last_month f t)).
  pose proof (dbm_mono (t / f) (lp_first_month f t) (lp_last_month f t)). lia.
Qed.

Lemma day_range f t : reg_freq f = true ->
  days_before_year (t / f) < day_start f t /\ day_end f t <= days_before_year (t / f + 1).
Proof.
  intros R. destruct (lp_months f t R) as (L0 & L01 & L1).
  pose proof (dim_range (t / f) (lp_first_month f t)). pose proof (dim_range (t / f) (lp_last_month f t)).
  split; apply ord_of_ymd_in_year; lia.
Qed.

(* tiling: the day after the last day of t is the first day of t + 1 (month lengths, leap years, year ends) *)
Theorem daily_tiling f t : reg_freq f = true -> day_end f t + 1 = day_start f (t + 1).
Proof. intros R. unfold day_start, day_end. rewrite lp_first_seg. apply (next_period_start f t R). Qed.

(* so the first days, and the last days, increase with the period *)
Lemma day_start_mono f a b : reg_freq f = true -> a <= b -> day_start f a <= day_start f b.
Proof.
  intros R H. pattern b. apply Z.le_ind with (n := a); [intros ? ? ->; reflexivity | lia | | exact H].
  intros m _ IH. rewrite <- Z.add_1_r, <- daily_tiling by assumption. pose proof (day_start_le_end f m R). lia.
Qed.

Lemma day_end_mono f a b : reg_freq f = true -> a <= b -> day_end f a <= day_end f b.
Proof.
  intros R H. pose proof (daily_tiling f a R). pose proof (daily_tiling f b R).
  pose proof (day_start_mono f (a + 1) (b + 1) R). lia.
Qed.

(* documented positions inside a period: first / last day, middle = offset ndays // 2 *)
Lemma dis_keep_daily d f l h :
  dis_keep d (ndays f l) (h - day_start f l) =
  match d with
  | DisFlat => true
  | DisFirst => h =? day_start f l
  | DisMiddle => h =? day_start f l + ndays f l / 2
  | DisLast => h =? day_end f l
  end.
Proof.
  unfold dis_keep, ndays. destruct d; try reflexivity.
  - destruct (Z.eqb_spec (h - day_start f l) 0), (Z.eqb_spec h (day_start f l)); try reflexivity; lia.
  - destruct (Z.eqb_spec (h - day_start f l) ((day_end f l - day_start f l + 1) / 2)),
             (Z.eqb_spec h (day_start f l + (day_end f l - day_start f l + 1) / 2)); try reflexivity; lia.
  - destruct (Z.eqb_spec (h - day_start f l) (day_end f l - day_start f l + 1 - 1)), (Z.eqb_spec h (day_end f l));
      try reflexivity; lia.
Qed.

Section ConvertDailyProofs.
Variable A : Arith.
Notation V := (car A).
Notation series := (series A).
Hypothesis miss_law : forall x : V, is_miss A x = true -> x = miss A.
Variable X : ArithExt A.

Lemma day_rows_length (s : series) f l : length (day_rows A s f l) = Z.to_nat (ndays f l).
Proof. unfold day_rows. now rewrite map_length, seq_length. Qed.

Lemma day_rows_nth (s : series) f l j : (j < Z.to_nat (ndays f l))%nat ->
  nth j (day_rows A s f l) (missrow A (s_nv s)) = row_at A s (day_start f l + Z.of_nat j).
Proof.
  intros Hj. unfold day_rows. rewrite nth_map_in with (d' := 0%nat) by (rewrite seq_length; lia).
  now rewrite seq_nth by lia.
Qed.

(* aggregation daily -> regular: the value of l is the method applied to exactly its days *)
Theorem aggregate_daily_spec m sel disc f_tgt (s r : series) st en l :
  WF A s -> s_start s = Some st -> s_end A s = Some en ->
  aggregate_daily A X m sel disc f_tgt s = Ok r ->
  row_at A r l =
    if (year_of_ord st * f_tgt <=? l) && (l <=? (year_of_ord en + 1) * f_tgt - 1)
    then agg_row A X m sel disc (s_nv s) (day_rows A s f_tgt l)
    else missrow A (s_nv s).
Proof.
  intros Hwf Es Ee. unfold aggregate_daily. rewrite Es, Ee.
  destruct (reg_freq f_tgt); [|discriminate].
  intros Hr. injection Hr as <-. rewrite row_at_build; [reflexivity|assumption|].
  intros u. apply agg_row_length.
Qed.

(* disaggregation regular -> daily: placement *)
Theorem disaggregate_daily_spec d (s r : series) st en h :
  WF A s -> s_start s = Some st -> s_end A s = Some en ->
  disaggregate_daily A d s = Ok r ->
  row_at A r h =
    if (day_start (s_freq s) st <=? h) && (h <=? day_end (s_freq s) en)
    then (let l := low_of_day (s_freq s) h in
          if match d with
             | DisFlat => true
             | DisFirst => h =? day_start (s_freq s) l
             | DisMiddle => h =? day_start (s_freq s) l + ndays (s_freq s) l / 2
             | DisLast => h =? day_end (s_freq s) l
             end
          then row_at A s l else missrow A (s_nv s))
    else missrow A (s_nv s).
Proof.
  intros Hwf Es Ee. unfold disaggregate_daily. rewrite Es, Ee.
  destruct (reg_freq (s_freq s)); [|discriminate].
  intros Hr. injection Hr as <-. rewrite row_at_build; [|assumption|].
  - cbv zeta. now rewrite dis_keep_daily.
  - intros u. cbv zeta. destruct (dis_keep _ _ _); [now apply row_at_length|apply missrow_length].
Qed.

(* flat disaggregation to daily: every day of period l carries the value of l *)
Lemma flat_daily_row (s d : series) l h : WF A s -> reg_freq (s_freq s) = true ->
  disaggregate_daily A DisFlat s = Ok d ->
  day_start (s_freq s) l <= h <= day_end (s_freq s) l -> row_at A d h = row_at A s l.
Proof.
  intros Hwf R Hd Hh.
  destruct (s_start s) as [st|] eqn:Es.
  2:{ unfold disaggregate_daily in Hd. rewrite Es in Hd. discriminate. }
  assert (Ee : s_end A s = Some (st + Z.of_nat (length (s_data s)) - 1)) by (unfold s_end; now rewrite Es).
  set (en := st + Z.of_nat (length (s_data s)) - 1) in *.
  rewrite (disaggregate_daily_spec DisFlat s d st en h Hwf Es Ee Hd). cbv zeta.
  apply (daily_membership _ h l R) in Hh as Hl. rewrite Hl.
  destruct (andb _ _) eqn:E; [reflexivity|].
  symmetry. eapply row_at_outside; eauto.
  destruct (Z_lt_le_dec l st) as [C|C]; [left; assumption|].
  destruct (Z_lt_le_dec en l) as [C'|C']; [right; assumption|]. exfalso.
  pose proof (day_start_mono _ st l R C). pose proof (day_end_mono _ l en R C').
  apply andb_false_iff in E as [E|E]; apply Z.leb_gt in E; lia.
Qed.

(* round trip: aggregating a flat daily disaggregation returns the original map *)
Theorem roundtrip_flat_daily m (s d r : series) :
  idempotent_on_constant A X m ->
  WF A s -> reg_freq (s_freq s) = true ->
  disaggregate_daily A DisFlat s = Ok d ->
  aggregate_daily A X m None false (s_freq s) d = Ok r ->
  forall l, row_at A r l = row_at A s l.
Proof.
  intros Hm Hwf R Hd Hr l. set (f := s_freq s) in *.
  pose proof (regular_pos f R) as Hf.
  assert (Hflat : forall l h, day_start f l <= h <= day_end f l -> row_at A d h = row_at A s l).
  { intros l0 h. now apply flat_daily_row. }
  assert (Hwd : WF A d /\ s_nv d = s_nv s).
  { unfold disaggregate_daily in Hd. destruct (s_start s); [|discriminate]. destruct (s_end A s); [|discriminate].
    fold f in Hd. rewrite R in Hd. injection Hd as <-. split; [|apply build_nv].
    apply build_WF; [assumption|]. intros u. now apply row_at_length. }
  destruct Hwd as [Hwd Hnvd].
  destruct (s_start d) as [sd|] eqn:Esd.
  2:{ unfold aggregate_daily in Hr. rewrite Esd in Hr. discriminate. }
  assert (Eed : s_end A d = Some (sd + Z.of_nat (length (s_data d)) - 1)) by (unfold s_end; now rewrite Esd).
  set (ed := sd + Z.of_nat (length (s_data d)) - 1) in *.
  rewrite (aggregate_daily_spec m None false f d r sd ed l Hwd Esd Eed Hr).
  pose proof (day_start_le_end f l R) as Hle.
  assert (Hgroup : day_rows A d f l = repeat (row_at A s l) (Z.to_nat (ndays f l))).
  { apply nth_ext with (d := missrow A (s_nv d)) (d' := row_at A s l).
    - now rewrite day_rows_length, repeat_length.
    - intros j Hj. rewrite day_rows_length in Hj. rewrite day_rows_nth by assumption.
      rewrite nth_repeat. apply Hflat. unfold ndays in Hj. lia. }
  destruct (andb _ _) eqn:E.
  - rewrite Hgroup, Hnvd, <- (row_at_length A s l Hwf).
    replace (Z.to_nat (ndays f l)) with (S (Z.to_nat (ndays f l) - 1)) by (unfold ndays; lia). now apply agg_row_repeat.
  - rewrite <- (Hflat l (day_start f l)) by lia. symmetry.
    eapply row_at_outside; eauto.
    destruct (day_range f l R) as [Hlo Hhi].
    pose proof (year_of_ord_spec sd) as Ssd. pose proof (year_of_ord_spec ed) as Sed.
    apply andb_false_iff in E as [E|E]; apply Z.leb_gt in E.
    + left. assert (l / f < year_of_ord sd) by (apply Z.div_lt_upper_bound; lia).
      pose proof (dby_mono (l / f + 1) (year_of_ord sd) ltac:(lia)). lia.
    + right. assert (year_of_ord ed + 1 <= l / f) by (apply Z.div_le_lower_bound; lia).
      pose proof (dby_mono (year_of_ord ed + 1) (l / f) ltac:(lia)). lia.
Qed.

End ConvertDailyProofs.
