(* Proofs about the model of the model-source compiler (model/Lang.v). *)
From Coq Require Import ZArith List String Bool Lia Ring QArith Qcanon.
From Verif Require Import lib.PyRange lib.LangSyntax gen.PseudoGen model.Lang.
Import ListNotations.
Open Scope Z_scope.

#[local] Arguments lookup_pseudo : simpl never.
#[local] Arguments shift_name_new : simpl never.
#[local] Arguments pseudo_sem : simpl never.
#[local] Opaque big_fuel.

(* induction over expressions (the argument list of a call is nested) *)
Section CexprInd.
Context {N : Type}.
Variable P : cexpr N -> Prop.
Hypothesis Hname : forall n k, P (CName n k).
Hypothesis Hnum : forall m d, P (CNum m d).
Hypothesis Hbin : forall o a b, P a -> P b -> P (CBin o a b).
Hypothesis Hneg : forall a, P a -> P (CNeg a).
Hypothesis Hcall : forall f args, Forall P args -> P (CCall f args).
Hypothesis Hparen : forall a, P a -> P (CParen a).
Hypothesis Hpseudo : forall f a k, P a -> P (CPseudo f a k).

Fixpoint cexpr_ind' (e : cexpr N) : P e :=
  match e with
  | CName n k => Hname n k
  | CNum m d => Hnum m d
  | CBin o a b => Hbin o a b (cexpr_ind' a) (cexpr_ind' b)
  | CNeg a => Hneg a (cexpr_ind' a)
  | CCall f args =>
      Hcall f args ((fix go (l : list (cexpr N)) : Forall P l :=
                       match l with
                       | [] => Forall_nil P
                       | x :: r => Forall_cons x (cexpr_ind' x) (go r)
                       end) args)
  | CParen a => Hparen a (cexpr_ind' a)
  | CPseudo f a k => Hpseudo f a k (cexpr_ind' a)
  end.
End CexprInd.

Lemma shift_name_new_spec : forall k b, shift_name_new k b = k + b.
Proof.
  intros k b. unfold shift_name_new.
  destruct (Z.eqb_spec b 0); simpl; lia.
Qed.

Section SemLemmas.
Variable C : carrier.
Notation V := (val C).

Lemma window_ext (op : V -> V -> V) (f g : Z -> V) st n :
  (forall j, f j = g j) -> window C op f st n = window C op g st n.
Proof. intros H. induction n; simpl; [apply H | rewrite IHn, H; reflexivity]. Qed.

Lemma pseudo_sem_ext p s (f g : Z -> V) :
  (forall j, f j = g j) -> pseudo_sem C p s f = pseudo_sem C p s g.
Proof.
  intros H. unfold pseudo_sem.
  destruct p; rewrite ?H; try reflexivity;
    destruct (Z.to_nat (Z.abs s)); try reflexivity; rewrite (window_ext _ f g); auto.
Qed.

(* a pseudofunction call means the same when its argument does, h being how the date moves *)
Lemma sem_pseudo_congr {N M} (h : Z -> Z) (rho : M -> Z -> V) (rho' : N -> Z -> V) f k a a' :
  (forall t j, h (t + j) = h t + j) -> (forall t, sem C rho a t = sem C rho' a' (h t)) ->
  forall t, sem C rho (CPseudo f a k) t = sem C rho' (CPseudo f a' k) (h t).
Proof.
  intros Hh H t. simpl. destruct (lookup_pseudo pseudo_resolution f) as [[p dfl]|].
  - apply pseudo_sem_ext. intros j. rewrite H, Hh. reflexivity.
  - rewrite H. reflexivity.
Qed.

(* The meaning is compositional.  A translation g of expressions that, as far as the meaning
   goes, commutes with every constructor but CName, and whose result at a name reads rho where
   the name reads rho' at the date moved by h, relates the two meanings on every expression. *)
Section Compositional.
Context {N M : Type}.
Variables (g : cexpr N -> cexpr M) (rho : M -> Z -> V) (rho' : N -> Z -> V) (h : Z -> Z).
Hypothesis Hh : forall t j, h (t + j) = h t + j.
Hypothesis Hname : forall n k t, sem C rho (g (CName n k)) t = rho' n (h t + k).
Hypothesis Hnum : forall m p t, sem C rho (g (CNum m p)) t = vnum C m p.
Hypothesis Hbin : forall o a b t, sem C rho (g (CBin o a b)) t = sem C rho (CBin o (g a) (g b)) t.
Hypothesis Hneg : forall a t, sem C rho (g (CNeg a)) t = sem C rho (CNeg (g a)) t.
Hypothesis Hcall : forall f args t, sem C rho (g (CCall f args)) t = sem C rho (CCall f (map g args)) t.
Hypothesis Hparen : forall a t, sem C rho (g (CParen a)) t = sem C rho (g a) t.
Hypothesis Hpseudo : forall f a k t, sem C rho (g (CPseudo f a k)) t = sem C rho (CPseudo f (g a) k) t.

Lemma sem_compositional (e : cexpr N) : forall t, sem C rho (g e) t = sem C rho' e (h t).
Proof.
  induction e using cexpr_ind'; intros t.
  - apply Hname.
  - apply Hnum.
  - rewrite Hbin. simpl. rewrite IHe1, IHe2. reflexivity.
  - rewrite Hneg. simpl. rewrite IHe. reflexivity.
  - rewrite Hcall. simpl. f_equal. rewrite map_map. apply map_ext_Forall.
    eapply Forall_impl; [|exact H]. intros a Ha. apply Ha.
  - rewrite Hparen. apply IHe.
  - rewrite Hpseudo. apply sem_pseudo_congr; assumption.
Qed.
End Compositional.

Context {N : Type}.

(* shifting all names moves the date *)
Theorem shiftE_sem (rho : N -> Z -> V) (e : cexpr N) :
  forall by_ t, sem C rho (shiftE by_ e) t = sem C rho e (t + by_).
Proof.
  intros by_. apply (sem_compositional (shiftE by_) rho rho (fun t => t + by_)); try reflexivity.
  - intros; lia.
  - intros n k t. simpl. rewrite shift_name_new_spec. f_equal. lia.
Qed.

Lemma sem_ext (rho rho' : N -> Z -> V) (e : cexpr N) :
  (forall n t, rho n t = rho' n t) -> forall t, sem C rho e t = sem C rho' e t.
Proof.
  intros H. apply (sem_compositional (fun e => e) rho rho' (fun t => t)); try reflexivity.
  - intros. apply H.
  - intros. simpl. rewrite map_id. reflexivity.
Qed.

(* parentheses have no meaning of their own *)
Lemma strip_sem (rho : N -> Z -> V) (e : cexpr N) : forall t, sem C rho (strip e) t = sem C rho e t.
Proof. apply (sem_compositional strip rho rho (fun t => t)); reflexivity. Qed.

End SemLemmas.

Lemma mov_sequence_spec : forall s,
  mov_sequence s =
    if s =? 0 then ([(TNum 0, 0)], 0)
    else if (s =? 1) || (s =? -1) then ([(TCode, 0)], 1)
    else (map (fun sh => (TParen TShifted, sh)) (py_range 0 s (sgn s)), Z.abs s).
Proof.
  intros s. unfold mov_sequence.
  destruct (s =? 0) eqn:E0; [reflexivity|]. destruct ((s =? 1) || (s =? -1)); [reflexivity|].
  unfold sgn. rewrite E0. destruct (Z.gtb_spec s 0); [rewrite Z.abs_eq | rewrite Z.abs_neq]; (reflexivity || lia).
Qed.

Lemma py_range_window : forall s, s <> 0 ->
  py_range 0 s (sgn s) = map (fun i => Z.of_nat i * sgn s) (seq 0 (Z.to_nat (Z.abs s))).
Proof.
  intros s Hs. unfold py_range. cbn [Z.add]. do 3 f_equal.
  unfold py_range_len, sgn. destruct (Z.gtb_spec s 0).
  - change (1 >? 0) with true. cbv iota. rewrite Z.div_1_r. lia.
  - destruct (Z.eqb_spec s 0); [contradiction|]. cbn. rewrite Z.div_1_r. lia.
Qed.

Section Expand.
Variable C : carrier.
Notation V := (val C).
Context {N : Type}.
Variable rho : N -> Z -> V.

Lemma join_sem o (e : cexpr N) r t :
  sem C rho (join o (e :: r)) t = fold_left (vbin C o) (map (fun x => sem C rho x t) r) (sem C rho e t).
Proof.
  unfold join. revert e. induction r as [|x r IH]; intros e; simpl; [reflexivity|].
  rewrite IH. reflexivity.
Qed.

Lemma fold_window (op : V -> V -> V) (f : Z -> V) st m :
  fold_left op (map (fun i => f (Z.of_nat i * st)) (seq 1 m)) (f 0) = window C op f st m.
Proof.
  induction m as [|m IH]; [reflexivity|].
  rewrite seq_S, map_app, fold_left_app, IH. reflexivity.
Qed.

(* "op".join over the sequence of _pseudo_mov is the window of |s| terms, for every operator *)
Lemma mov_join_sem o (a : cexpr N) s t :
  sem C rho (join o (map (fun ts : tpl * Z => inst (fst ts) a (snd ts) no_join 0) (fst (mov_sequence s)))) t =
    match Z.to_nat (Z.abs s) with
    | O => vnum C 0 0
    | S m => window C (vbin C o) (fun j => sem C rho a (t + j)) (sgn s) m
    end.
Proof.
  rewrite mov_sequence_spec. destruct (Z.eqb_spec s 0) as [->|Hs]; [reflexivity|].
  destruct ((s =? 1) || (s =? -1)) eqn:E1.
  { replace (Z.to_nat (Z.abs s)) with 1%nat by lia. simpl. rewrite Z.add_0_r. reflexivity. }
  cbn [fst]. rewrite py_range_window by assumption.
  destruct (Z.to_nat (Z.abs s)) as [|m] eqn:En; [lia|].
  cbn [seq]. rewrite !map_map. cbn [map]. rewrite join_sem, map_map.
  rewrite <- (fold_window (vbin C o) (fun j => sem C rho a (t + j)) (sgn s) m).
  cbn [fst snd inst sem]. rewrite shiftE_sem. f_equal.
  apply map_ext. intros i. apply shiftE_sem.
Qed.

Lemma mov_total s : snd (mov_sequence s) = Z.abs s.
Proof.
  rewrite mov_sequence_spec. destruct (Z.eqb_spec s 0) as [->|]; [reflexivity|].
  destruct ((s =? 1) || (s =? -1)) eqn:E; [cbn; lia | reflexivity].
Qed.

Variable vinv : V -> V.
Hypothesis Rth : ring_theory (vnum C 0 0) (vnum C 1 0) (vadd C) (vmul C) (vsub C) (vneg C) eq.
Hypothesis div_def : forall x y, vdiv C x y = vmul C x (vinv y).
Add Ring Vring : Rth.

(* every builder's string, instantiated, denotes the documented formula *)
Lemma expand_call_sem p s (a : cexpr N) t :
  sem C rho (expand_call p s a) t = pseudo_sem C p s (fun j => sem C rho a (t + j)).
Proof.
  unfold expand_call. rewrite (surjective_pairing (mov_sequence s)).
  destruct p; unfold pseudo_sem; cbn [pseudo_template tpl_Pshift tpl_Pdiff tpl_Pdifflog tpl_Ppct tpl_Proc
    tpl_Pmovsum tpl_Pmovavg tpl_Pmovprod inst sem vbin map];
    rewrite ?shiftE_sem, ?mov_join_sem, ?mov_total, ?Z.add_0_r; try reflexivity.
  (* left: pct, whose string 100*x/y - 100 is documented as 100*(x/y - 1) *)
  rewrite !div_def. ring.
Qed.

(* resolving the pseudofunctions does not change the meaning *)
Theorem expand_sem (e : cexpr N) : forall t, sem C rho (expand e) t = sem C rho e t.
Proof.
  apply (sem_compositional C expand rho rho (fun t => t)); try reflexivity.
  intros f a k t. simpl. destruct (lookup_pseudo pseudo_resolution f) as [[p dfl]|] eqn:El.
  - apply expand_call_sem.
  - simpl. rewrite El. reflexivity.
Qed.

End Expand.

Section Xtring.
Variable C : carrier.
Notation V := (val C).
Hypothesis Rth : ring_theory (vnum C 0 0) (vnum C 1 0) (vadd C) (vmul C) (vsub C) (vneg C) eq.
Add Ring Vring2 : Rth.

Section Generic.
Context {N : Type}.
Variable rho : N -> Z -> V.

(* -(lhs) glued in front of the bare rhs text *)
Lemma graft_sem (n r : cexpr N) t : sem C rho (graft n r) t = vadd C (sem C rho n t) (sem C rho r t).
Proof.
  induction r using cexpr_ind'; try reflexivity.
  destruct o; try reflexivity; simpl; rewrite IHr1; simpl; ring.
Qed.

Lemma residual_sem (l r : cexpr N) t :
  sem C rho (residual l r) t = vsub C (sem C rho r t) (sem C rho l t).
Proof. unfold residual. rewrite graft_sem. simpl. ring. Qed.

Definition tails_value (t : Z) (base : V) (tails : list (bool * cexpr N)) : V :=
  fold_left (fun acc (st : bool * cexpr N) => if fst st then vadd C acc (sem C rho (snd st) t) else vsub C acc (sem C rho (snd st) t))
            tails base.

Lemma add_tails_sem (base : cexpr N) tails t :
  sem C rho (add_tails base tails) t = tails_value t (sem C rho base t) tails.
Proof.
  unfold add_tails, tails_value. revert base.
  induction tails as [|[b e] r IH]; intros base; simpl; [reflexivity|].
  rewrite IH. destruct b; reflexivity.
Qed.
End Generic.

(* every transition shock e stands for e + ant_e in a dynamic transition equation *)
Definition rho_ant (shocks : list string) (rho : string -> Z -> V) : string -> Z -> V :=
  fun n k => if mem_s n shocks then vadd C (rho n k) (rho (append ant_prefix n) k) else rho n k.

Lemma ant_subst_sem shocks (rho : string -> Z -> V) (e : sexpr) :
  forall t, sem C rho (ant_subst shocks e) t = sem C (rho_ant shocks rho) e t.
Proof.
  apply (sem_compositional C (ant_subst shocks) rho (rho_ant shocks rho) (fun t => t)); try reflexivity.
  intros n k t. unfold rho_ant. simpl. destruct (mem_s n shocks); reflexivity.
Qed.

Lemma ant_rho_no_shocks (rho : string -> Z -> V) : forall n k, rho_ant [] rho n k = rho n k.
Proof. reflexivity. Qed.

(* names -> quantity ids *)
Section Names.
Context {N M : Type}.
Variable f : N -> option M.
Variable X : M -> Z -> V.
Definition rho_names : N -> Z -> V := fun n k => match f n with Some m => X m k | None => vnum C 0 0 end.

(* where every name has an id, the renamed expression reads X as the original reads rho_names *)
Lemma map_names_sem (e : cexpr N) :
  match map_names f e with
  | Some x => forall t, sem C X x t = sem C rho_names e t
  | None => True
  end.
Proof.
  induction e using cexpr_ind'; simpl.
  - unfold rho_names. destruct (f n); trivial.
  - trivial.
  - destruct (map_names f e1), (map_names f e2); trivial. intros t. simpl. rewrite IHe1, IHe2. reflexivity.
  - destruct (map_names f e); trivial. intros t. simpl. rewrite IHe. reflexivity.
  - match goal with |- match match ?G args with _ => _ end with _ => _ end => set (go := G) end.
    assert (Hargs : match go args with
                    | Some args' => forall t, map (fun a => sem C X a t) args' = map (fun a => sem C rho_names a t) args
                    | None => True
                    end).
    { induction H as [|a l Ha _ IH]; simpl; [trivial|].
      destruct (map_names f a), (go l); trivial. intros t. simpl. rewrite Ha, IH. reflexivity. }
    destruct (go args); trivial. intros t. simpl. rewrite Hargs. reflexivity.
  - destruct (map_names f e); trivial.
  - destruct (map_names f e); trivial. apply (sem_pseudo_congr C (fun t => t)); trivial.
Qed.
End Names.

(* the data a compiled equation reads: X qid date;  names are looked up in id order *)
Definition rho_model (names shocks : list string) (X : Z -> Z -> V) : string -> Z -> V :=
  rho_ant shocks (rho_names (fun n => index_of n names 0) X).

(* the compiled equation denotes rhs - lhs of the equation as written after macro
   expansion (l, r), with every transition shock of a dynamic transition equation read as
   shock + anticipated shock *)
Theorem xtring_sem cx subs be names shocks s l r x :
  side_written cx subs be s = Some (l, r) ->
  compile_side cx subs be names shocks s = Some x ->
  forall (X : Z -> Z -> V) t,
    sem C X x t = vsub C (sem C (rho_model names shocks X) r t) (sem C (rho_model names shocks X) l t).
Proof.
  intros Hw Hc X t. unfold compile_side in Hc. rewrite Hw in Hc.
  pose proof (map_names_sem (fun n => index_of n names 0) X (strip (residual (ant_subst shocks l) (ant_subst shocks r)))) as Hx.
  rewrite Hc in Hx. rewrite Hx, strip_sem, residual_sem, !ant_subst_sem. reflexivity.
Qed.

End Xtring.

Section Trees.
Context {T : Type}.
Variable sub : string -> string -> T -> T.
Variable cx : context.

(* a well-nested sequence is the flattening of a forest *)
Inductive node :=
| NText (x : T)
| NFor (c : string) (toks : list tokitem) (body : list node)
| NIf (cd : cond) (th : list node) (el : option (list node)).

Fixpoint flatten1 (n : node) : list (directive T) :=
  match n with
  | NText x => [DText x]
  | NFor c toks body => DFor c toks :: flat_map flatten1 body ++ [DEnd]
  | NIf cd th el =>
      DIf cd :: flat_map flatten1 th
        ++ (match el with Some l => DElse :: flat_map flatten1 l | None => [] end) ++ [DEnd]
  end.
Definition flatten (l : list node) : list (directive T) := flat_map flatten1 l.

Fixpoint subst_node (c tok : string) (n : node) : node :=
  match n with
  | NText x => NText (sub c tok x)
  | NFor c' toks body => NFor c' (map (subst_tokitem c tok) toks) (map (subst_node c tok) body)
  | NIf cd th el =>
      NIf (subst_cond c tok cd) (map (subst_node c tok) th)
          (match el with Some l => Some (map (subst_node c tok) l) | None => None end)
  end.

(* the meaning of the directives: a loop is the concatenation of its body instantiated for
   every token, a conditional is its selected branch *)
Inductive expands : list node -> list T -> Prop :=
| X_nil : expands [] []
| X_text x r out : expands r out -> expands (NText x :: r) (x :: out)
| X_for c toks body r tl o1 o2 :
    tokens_of cx toks = Some tl ->
    expands (flat_map (fun tok => map (subst_node c tok) body) tl) o1 ->
    expands r o2 ->
    expands (NFor c toks body :: r) (o1 ++ o2)
| X_if cd th el r b o1 o2 :
    cond_eval cx cd = Some b ->
    expands (if b then th else match el with Some l => l | None => [] end) o1 ->
    expands r o2 ->
    expands (NIf cd th el :: r) (o1 ++ o2).

(* the branch taken when the condition is false *)
Definition els (el : option (list node)) : list node := match el with Some l => l | None => [] end.
(* what an !if holds between its first branch and its !end *)
Definition else_part (el : option (list node)) : list (directive T) :=
  match el with Some l => DElse :: flatten l | None => [] end.

(* induction over forests: every forest inside a node is a smaller forest *)
Section ForestInd.
Variable P : list node -> Prop.
Hypothesis Hnil : P [].
Hypothesis Htext : forall x r, P r -> P (NText x :: r).
Hypothesis Hfor : forall c toks body r, P body -> P r -> P (NFor c toks body :: r).
Hypothesis Hif : forall cd th el r, P th -> P (els el) -> P r -> P (NIf cd th el :: r).
Fixpoint forest_cons (n : node) : forall r, P r -> P (n :: r) :=
  let fix go (l : list node) : P l :=
    match l with [] => Hnil | x :: r => forest_cons x r (go r) end in
  match n with
  | NText x => Htext x
  | NFor c toks body => fun r => Hfor c toks body r (go body)
  | NIf cd th el => fun r =>
      Hif cd th el r (go th) (match el return P (els el) with Some l => go l | None => Hnil end)
  end.
Lemma forest_ind f : P f.
Proof. induction f; [exact Hnil | apply forest_cons; assumption]. Qed.
End ForestInd.

Lemma flatten_app a b : flatten (a ++ b) = flatten a ++ flatten b.
Proof. apply flat_map_app. Qed.

Lemma flatten_text x r : flatten (NText x :: r) = DText x :: flatten r.
Proof. reflexivity. Qed.

Lemma flatten_for c toks body r :
  flatten (NFor c toks body :: r) = DFor c toks :: flatten body ++ DEnd :: flatten r.
Proof. cbn. rewrite <- app_assoc. reflexivity. Qed.

Lemma flatten_if cd th el r :
  flatten (NIf cd th el :: r) = DIf cd :: flatten th ++ else_part el ++ DEnd :: flatten r.
Proof. cbn. rewrite <- !app_assoc. reflexivity. Qed.

#[local] Arguments flatten : simpl never.

(* A search F that goes down a sequence keeping the cumulated level passes over a flattened
   forest, given that it steps over every directive other than !else that leaves the level at 1
   or more, and over an !else above level 1.  Started at level 1 or more, the level stays there
   inside the forest, an !else of the forest sits at least one higher, and at the end the level
   is back where it was. *)
Section Search.
Variable F : Z -> nat -> list (directive T) -> option nat.
Hypothesis F_step : forall a i d r, is_else d = false -> 1 <= a + level d ->
  F a i (d :: r) = F (a + level d) (S i) r.
Hypothesis F_else : forall a i r, 1 < a -> F a i (DElse :: r) = F a (S i) r.

Lemma search_close a i r : 1 <= a -> F (a + 1) i (DEnd :: r) = F a (S i) r.
Proof. intros Ha. rewrite F_step by (trivial; cbn; lia). f_equal. cbn. lia. Qed.

Lemma search_skip f : forall a i rest, 1 <= a ->
  F a i (flatten f ++ rest) = F a (i + List.length (flatten f)) rest.
Proof.
  induction f as [| x r IHr | c toks body r IHb IHr | cd th el r IHt IHe IHr] using forest_ind;
    intros a i rest Ha.
  - rewrite Nat.add_0_r. reflexivity.
  - rewrite flatten_text. cbn [app List.length].
    rewrite F_step by (trivial; cbn; lia). cbn [level].
    rewrite Z.add_0_r, IHr by assumption. f_equal. lia.
  - rewrite flatten_for. cbn [app List.length]. rewrite app_length. cbn [List.length].
    rewrite F_step by (trivial; cbn; lia). cbn [level].
    rewrite <- app_assoc, IHb by lia. cbn [app]. rewrite search_close, IHr by assumption. f_equal. lia.
  - rewrite flatten_if. cbn [app List.length]. rewrite !app_length. cbn [List.length].
    rewrite F_step by (trivial; cbn; lia). cbn [level].
    rewrite <- !app_assoc, IHt by lia.
    destruct el as [l|]; cbn [else_part els app List.length] in *.
    + rewrite F_else, IHe by lia. cbn [app]. rewrite search_close, IHr by assumption. f_equal. lia.
    + rewrite search_close, IHr by assumption. f_equal. lia.
Qed.
End Search.

(* the search for the matching !end stops at level 0 only *)
Lemma find_end_skip f a i rest : 1 <= a ->
  find_end_from a i (flatten f ++ rest) = find_end_from a (i + List.length (flatten f)) rest.
Proof.
  apply (search_skip find_end_from); intros; cbn; rewrite (proj2 (Z.eqb_neq _ 0)) by lia.
  - reflexivity.
  - rewrite Z.add_0_r. reflexivity.
Qed.

(* the search for !else stops at an !else at level 1: one step over a directive that is none,
   at any bound ... *)
Lemma find_else_from_cons acc i b (d : directive T) r :
  is_else d = false -> match b with Some e => (i < e)%nat | None => True end ->
  find_else_from acc i b (d :: r) = find_else_from (acc + level d) (S i) b r.
Proof.
  intros Hd Hi. cbn. rewrite Hd, andb_false_r.
  destruct b as [e|]; [rewrite (proj2 (Nat.leb_gt _ _) Hi)|]; reflexivity.
Qed.

(* ... over an !else that belongs to an inner !if ... *)
Lemma find_else_from_inner a i (r : list (directive T)) : 1 < a ->
  find_else_from a i None (DElse :: r) = find_else_from a (S i) None r.
Proof. intros Ha. cbn. rewrite Z.add_0_r, (proj2 (Z.eqb_neq a 1)) by lia. reflexivity. Qed.

Lemma find_else_from_hit i e (r : list (directive T)) : (i < e)%nat ->
  find_else_from 1 i (Some e) (DElse :: r) = Some i.
Proof. intros Hi. cbn. rewrite (proj2 (Nat.leb_gt _ _) Hi). reflexivity. Qed.

(* ... and over a whole forest *)
Lemma find_else_skip_unbounded f a i rest : 1 <= a ->
  find_else_from a i None (flatten f ++ rest) = find_else_from a (i + List.length (flatten f)) None rest.
Proof.
  apply (search_skip (fun a i => find_else_from a i None)); intros.
  - apply find_else_from_cons; trivial.
  - apply find_else_from_inner. assumption.
Qed.

(* a bounded search is the unbounded one, its result dropped when it is not below the bound *)
Lemma find_else_from_bound acc i e (s : list (directive T)) : (e <= i)%nat ->
  find_else_from acc i (Some e) s = None.
Proof. intros Hi. destruct s; cbn; [|rewrite (proj2 (Nat.leb_le _ _) Hi)]; reflexivity. Qed.

Lemma find_else_bounded (s : list (directive T)) : forall acc i e,
  find_else_from acc i (Some e) s =
  match find_else_from acc i None s with Some j => if (j <? e)%nat then Some j else None | None => None end.
Proof.
  induction s as [|d s IH]; intros acc i e; [reflexivity|]. cbn [find_else_from].
  destruct (Nat.leb_spec e i) as [Hi|Hi]; destruct ((acc + level d =? 1) && is_else d).
  - rewrite (proj2 (Nat.ltb_ge _ _) Hi). reflexivity.
  - rewrite <- IH. symmetry. apply find_else_from_bound. lia.
  - rewrite (proj2 (Nat.ltb_lt _ _) Hi). reflexivity.
  - apply IH.
Qed.

Lemma find_else_skip f a i b rest : 1 <= a ->
  find_else_from a i b (flatten f ++ rest) = find_else_from a (i + List.length (flatten f)) b rest.
Proof.
  intros Ha. destruct b as [e|]; [|apply find_else_skip_unbounded, Ha].
  rewrite !find_else_bounded, find_else_skip_unbounded by assumption. reflexivity.
Qed.

(* substitution commutes with flattening *)
Lemma flatten_subst c tok f :
  map (subst_directive sub c tok) (flatten f) = flatten (map (subst_node c tok) f).
Proof.
  induction f as [| x r IHr | c' toks body r IHb IHr | cd th el r IHt IHe IHr] using forest_ind.
  - reflexivity.
  - cbn [map subst_node]. rewrite !flatten_text, <- IHr. reflexivity.
  - cbn [map subst_node]. rewrite !flatten_for, <- IHb, <- IHr, map_cons, map_app. reflexivity.
  - cbn [map subst_node]. rewrite !flatten_if, <- IHt, <- IHr, map_cons, !map_app.
    destruct el as [l|]; cbn [els else_part] in *; [rewrite <- IHe|]; reflexivity.
Qed.

Lemma flatten_flat_map (g : string -> list node) tl :
  flatten (flat_map g tl) = flat_map (fun tok => flatten (g tok)) tl.
Proof. induction tl; simpl; [reflexivity|]. rewrite flatten_app, IHtl. reflexivity. Qed.

Lemma firstn_app_exact {A} (a b : list A) : firstn (List.length a) (a ++ b) = a.
Proof. induction a; simpl; congruence. Qed.
Lemma skipn_app_exact {A} (a b : list A) : skipn (List.length a) (a ++ b) = b.
Proof. induction a; simpl; congruence. Qed.

Lemma rapp_ok (a b : list T) : rapp (ROk a) (ROk b) = ROk (a ++ b).
Proof. reflexivity. Qed.

(* what follows a prefix and one more element *)
Lemma skipn_S_app {A} (p l : list A) : skipn (S (List.length p)) (p ++ l) = tl l.
Proof. induction p; [destruct l|]; simpl; auto. Qed.

(* where the parts of  d a e x r  are: a, e without its head, r *)
Lemma block_parts (d x : directive T) a e r : let s := d :: a ++ e ++ x :: r in
  let n := List.length a in let m := List.length e in
  slice 1 (S n) s = a /\ slice (S (S n)) (S (n + m)) s = tl e /\ skipn (S (S (n + m))) s = r.
Proof.
  intros s n m. split; [|split].
  - unfold slice. cbn. rewrite Nat.sub_0_r. apply firstn_app_exact.
  - unfold slice, s, n, m. rewrite skipn_cons, skipn_S_app.
    destruct e as [|y e]; [replace (_ - _)%nat with 0%nat by (cbn; lia); reflexivity|].
    replace (_ - _)%nat with (List.length e) by (cbn; lia). apply firstn_app_exact.
  - unfold s, n, m. rewrite app_comm_cons, app_assoc.
    replace (S (_ + _)) with (List.length ((d :: a) ++ e)) by (rewrite app_length; reflexivity).
    apply (skipn_S_app _ (x :: r)).
Qed.

Notation resolve := (resolve sub cx true).

(* one step of _resolve_sequence on a loop whose body is well nested *)
Lemma resolve_for fu c toks body R :
  resolve (S fu) (DFor c toks :: flatten body ++ DEnd :: R) =
  match tokens_of cx toks with
  | Some tl => rapp (resolve fu (flatten (flat_map (fun tok => map (subst_node c tok) body) tl))) (resolve fu R)
  | None => RErr
  end.
Proof.
  assert (He : find_end (DFor c toks :: flatten body ++ DEnd :: R) = Some (S (List.length (flatten body)))).
  { unfold find_end. cbn. rewrite find_end_skip by lia. reflexivity. }
  destruct (block_parts (DFor c toks) DEnd (flatten body) [] R) as (Hb & _ & Hr).
  cbn [app List.length] in Hb, Hr. rewrite Nat.add_0_r in Hr.
  cbn [Lang.resolve]. rewrite He, Hb, Hr. destruct (tokens_of cx toks) as [tl|]; [|reflexivity].
  rewrite flatten_flat_map. do 2 f_equal. apply flat_map_ext. intros tok. apply flatten_subst.
Qed.

(* ... and on a conditional whose branches are well nested *)
Lemma resolve_if fu cd th el R :
  resolve (S fu) (DIf cd :: flatten th ++ else_part el ++ DEnd :: R) =
  match cond_eval cx cd with
  | Some b => rapp (resolve fu (flatten (if b then th else els el))) (resolve fu R)
  | None => RErr
  end.
Proof.
  set (s := DIf cd :: flatten th ++ else_part el ++ DEnd :: R).
  set (n := List.length (flatten th)). set (e := S (n + List.length (else_part el))).
  assert (He : find_end s = Some e).
  { unfold find_end, s. cbn. rewrite find_end_skip by lia.
    destruct el as [l|]; cbn; [rewrite find_end_skip by lia; cbn|]; f_equal; unfold e, n; cbn; lia. }
  (* the first branch ends at S n: there the !else is found, or without one the !end is *)
  assert (Hel : match find_else true e s with Some i => i | None => e end = S n).
  { unfold find_else, s. rewrite find_else_from_cons by (trivial; unfold e; lia). cbn [level Z.add].
    rewrite find_else_skip by lia. fold n. destruct el as [l|]; cbn [else_part app].
    - rewrite find_else_from_hit by (unfold e; cbn; lia). reflexivity.
    - rewrite find_else_from_bound by (unfold e; cbn; lia). unfold e. cbn. lia. }
  destruct (block_parts (DIf cd) DEnd (flatten th) (else_part el) R) as (Ht & Hl & Hr).
  subst s e n. cbn [Lang.resolve]. rewrite He.
  destruct (cond_eval cx cd) as [b|]; [|reflexivity]. rewrite Hel, Hr.
  destruct b; [rewrite Ht | rewrite Hl; destruct el]; reflexivity.
Qed.

(* if the parts of a step come out with enough fuel, so does the step, with one unit more *)
Lemma enough_fuel s a b o1 o2 :
  (forall fu, resolve (S fu) s = rapp (resolve fu a) (resolve fu b)) ->
  (exists n, forall fuel, (n <= fuel)%nat -> resolve fuel a = ROk o1) ->
  (exists n, forall fuel, (n <= fuel)%nat -> resolve fuel b = ROk o2) ->
  exists n, forall fuel, (n <= fuel)%nat -> resolve fuel s = ROk (o1 ++ o2).
Proof.
  intros Hs [n1 H1] [n2 H2]. exists (S (Nat.max n1 n2)). intros [|fu] Hf; [lia|].
  rewrite Hs, H1, H2 by lia. reflexivity.
Qed.

(* _resolve_sequence on a well-nested sequence is the expansion; the fuel needed is
   bounded and any larger fuel gives the same answer *)
Theorem resolve_flatten f out : expands f out ->
  exists n, forall fuel, (n <= fuel)%nat -> resolve fuel (flatten f) = ROk out.
Proof.
  induction 1 as [| x r out _ [n IH] | c toks body r tl o1 o2 Htl _ IH1 _ IH2 | cd th el r b o1 o2 Hcd _ IH1 _ IH2].
  - exists 1%nat. intros [|fu] Hf; [lia | reflexivity].
  - exists (S n). intros [|fu] Hf; [lia|]. rewrite flatten_text. cbn [Lang.resolve]. rewrite IH by lia. reflexivity.
  - rewrite flatten_for. eapply enough_fuel; [| exact IH1 | exact IH2].
    intros fu. rewrite resolve_for, Htl. reflexivity.
  - rewrite flatten_if. eapply enough_fuel; [| exact IH1 | exact IH2].
    intros fu. rewrite resolve_if, Hcd. reflexivity.
Qed.

End Trees.

Section TreeCorollaries.
Context {T : Type}.
Variable sub : string -> string -> T -> T.
Variable cx : context.
Notation node := (@node T).
Notation expands := (expands sub cx).

Lemma expands_app f1 o1 f2 o2 : expands f1 o1 -> expands f2 o2 -> expands (f1 ++ f2) (o1 ++ o2).
Proof.
  induction 1; intros H2; simpl.
  - exact H2.
  - constructor. auto.
  - rewrite <- app_assoc. econstructor; eauto.
  - rewrite <- app_assoc. econstructor; eauto.
Qed.

Lemma expands_concat (g : string -> list node) tl outs :
  Forall2 (fun tok o => expands (g tok) o) tl outs -> expands (flat_map g tl) (List.concat outs).
Proof. induction 1; simpl; [constructor | apply expands_app; assumption]. Qed.

(* a loop is the concatenation, over its tokens in order, of its body with the control name replaced *)
Theorem for_expansion c toks body tl outs :
  tokens_of cx toks = Some tl ->
  Forall2 (fun tok o => expands (map (subst_node sub c tok) body) o) tl outs ->
  expands [NFor c toks body] (List.concat outs)
  /\ exists n, forall fuel, (n <= fuel)%nat ->
       resolve sub cx true fuel (DFor c toks :: flatten body ++ [DEnd]) = ROk (List.concat outs).
Proof.
  intros Ht Hall.
  assert (He : expands [NFor c toks body] (List.concat outs)).
  { rewrite <- (app_nil_r (List.concat outs)). econstructor; [exact Ht | | constructor].
    apply expands_concat. exact Hall. }
  split; [exact He|]. apply (resolve_flatten sub cx) in He. rewrite flatten_for in He. exact He.
Qed.

(* a conditional is its selected branch *)
Theorem if_selection cd th el b out :
  cond_eval cx cd = Some b ->
  expands (if b then th else match el with Some l => l | None => [] end) out ->
  expands [NIf cd th el] out
  /\ exists n, forall fuel, (n <= fuel)%nat -> resolve sub cx true fuel (flatten [NIf cd th el]) = ROk out.
Proof.
  intros Hc Hb.
  assert (He : expands [NIf cd th el] out).
  { rewrite <- (app_nil_r out). econstructor; [exact Hc | exact Hb | constructor]. }
  split; [exact He|]. apply resolve_flatten. exact He.
Qed.

Lemma resolve_text (items : list T) be : forall fuel, (List.length items < fuel)%nat ->
  resolve sub cx be fuel (map DText items) = ROk items.
Proof.
  induction items as [|x r IH]; intros [|fu] Hf; simpl in *; try lia; [reflexivity|].
  rewrite IH by lia. reflexivity.
Qed.

End TreeCorollaries.

(* with the search of _find_matching_else not bounded by the matching !end (bounded_else = false)
   resolve_flatten fails: an !if without !else followed by an !if with !else is rejected *)
Definition cd_true : cond := CdCmp CmpEq (IConst 0) (IConst 0).
Definition sub_nat : string -> string -> nat -> nat := fun _ _ x => x.
Definition refuting_forest : list (@node nat) :=
  [NIf cd_true [NText 1%nat] None; NIf cd_true [NText 2%nat] (Some [NText 3%nat])].

(* non-vacuity of resolve_flatten: a loop nested in a loop nested in a conditional, over strings *)
Definition sub_str : string -> string -> string -> string :=
  fun c tok x => if String.eqb x c then tok else x.
Example nested_example :
  let f := [NIf cd_true
              [NFor "?a" [TokName [Lit "x"]; TokName [Lit "y"]]
                 [NText "?a"%string; NFor "?b" [TokName [Ctl "?a" VPlain; Lit "1"]; TokName [Lit "z"]] [NText "?b"%string]]]
              (Some [NText "no"%string])] in
  expands sub_str [] f ["x"; "x1"; "z"; "y"; "y1"; "z"]%string
  /\ resolve sub_str [] true 50 (flatten f) = ROk ["x"; "x1"; "z"; "y"; "y1"; "z"]%string.
Proof.
  split; [| vm_compute; reflexivity].
  rewrite <- (app_nil_r ["x"; "x1"; "z"; "y"; "y1"; "z"]%string).
  eapply X_if with (b := true); [reflexivity | | constructor].
  rewrite <- (app_nil_r ["x"; "x1"; "z"; "y"; "y1"; "z"]%string).
  eapply X_for; [reflexivity | | constructor]. cbn.
  apply X_text. change ["x1"; "z"; "y"; "y1"; "z"]%string with (["x1"%string; "z"%string] ++ ["y"%string; "y1"%string; "z"%string])%list.
  eapply X_for; [reflexivity | cbn; repeat constructor |].
  apply X_text. rewrite <- (app_nil_r ["y1"; "z"]%string).
  eapply X_for; [reflexivity | cbn; repeat constructor | constructor].
Qed.

(* A builder's string is spliced into the equation text; the splice equals substitution in
   the syntax tree when the string is delimited by its own parentheses and every hole sits
   directly inside parentheses (or is the argument of a call). *)
Definition tpl_closed (t : tpl) : bool :=
  match t with TParen _ | TNum _ | TCall1 _ _ | TTotal => true | _ => false end.

Fixpoint holes_safe (inside : bool) (t : tpl) : bool :=
  match t with
  | TCode | TShifted | TJoin _ => inside
  | TTotal | TNum _ => true
  | TBin _ a b => holes_safe false a && holes_safe false b
  | TNeg a => holes_safe false a
  | TCall1 _ a => holes_safe true a
  | TParen a => holes_safe true a
  end.

Definition mov_elems_ok (s : Z) : bool :=
  let seq := fst (mov_sequence s) in
  (Nat.eqb (List.length seq) 1 && forallb (fun ts : tpl * Z => holes_safe true (fst ts)) seq)
  || forallb (fun ts : tpl * Z => tpl_closed (fst ts) && holes_safe false (fst ts)) seq.

(* the kinds in the order of their codes: a kind is the entry at its code *)
Definition kinds_by_code : list qkind :=
  [QUnspecified; QTransitionVariable; QMeasurementVariable; QTransitionShock; QAnticipatedShockValue;
   QMeasurementShock; QLhsVariable; QRhsOnlyVariable; QParameter; QExogenousVariable; QTransitionStd;
   QMeasurementStd].

Lemma kind_at_code k : nth (qkind_code k) kinds_by_code QUnspecified = k.
Proof. destruct k; reflexivity. Qed.

Lemma kind_code_inj a b : qkind_code a = qkind_code b -> a = b.
Proof. intros H. rewrite <- (kind_at_code a), H. apply kind_at_code. Qed.

Lemma kind_eqb_eq a b : qkind_eqb a b = true <-> a = b.
Proof. split; [intros H; apply kind_code_inj, Nat.eqb_eq, H | intros ->; apply Nat.eqb_refl]. Qed.

Lemma kind_tables :
  entry_order = [QTransitionVariable; QTransitionShock; QMeasurementVariable; QParameter; QExogenousVariable; QMeasurementShock]
  /\ loggable_kinds = [QTransitionVariable; QMeasurementVariable; QExogenousVariable]
  /\ NoDup kind_order /\ (forall k, In k kind_order).
Proof.
  assert (Hall : forall k, In k kind_order) by (intros []; repeat (first [left; reflexivity | right])).
  repeat split; try reflexivity; [|exact Hall].
  (* twelve kinds, all of them among twelve entries: none twice *)
  apply (NoDup_incl_NoDup (l := kinds_by_code)).
  - apply (NoDup_map_inv qkind_code). exact (seq_NoDup 12 0).
  - reflexivity.
  - intros k _. apply Hall.
Qed.

(* the carrier is a commutative ring whose division is multiplication by an inverse *)
Definition lawful (C : carrier) (vinv : val C -> val C) : Prop :=
  ring_theory (vnum C 0 0) (vnum C 1 0) (vadd C) (vmul C) (vsub C) (vneg C) eq
  /\ (forall x y : val C, vdiv C x y = vmul C x (vinv y)).

(* the shift of a window that looks x periods back, or ahead *)
Definition toward (back : bool) (x : Z) : Z := if back then - x else x.

Section Formulas.
Variable C : carrier.
Notation V := (val C).

(* sum of f 0, f 1, ..., f (n-1) *)
Fixpoint bigsum (f : nat -> V) (n : nat) : V :=
  match n with O => vnum C 0 0 | S m => vadd C (bigsum f m) (f m) end.
Fixpoint bigprod (f : nat -> V) (n : nat) : V :=
  match n with O => vnum C 1 0 | S m => vmul C (bigprod f m) (f m) end.
End Formulas.

Section CallFormulas.
Variable C : carrier.
Notation V := (val C).
Variable vinv : V -> V.
Hypothesis L : lawful C vinv.
Context {N : Type}.
Variable rho : N -> Z -> V.
Notation ev := (sem C rho).
Notation bigsum := (bigsum C).
Notation bigprod := (bigprod C).

(* a call of a known pseudofunction, expanded, denotes its documented formula *)
Lemma pseudo_call_sem f p dfl (e : cexpr N) k t : lookup_pseudo pseudo_resolution f = Some (p, dfl) ->
  ev (expand (CPseudo f e k)) t = pseudo_sem C p (resolve_shift k dfl) (fun j => ev e (t + j)).
Proof. intros H. rewrite (expand_sem C rho vinv (proj1 L) (proj2 L)). simpl. rewrite H. reflexivity. Qed.

Lemma pseudo_default f p dfl (e : cexpr N) t : lookup_pseudo pseudo_resolution f = Some (p, dfl) ->
  ev (expand (CPseudo f e None)) t = ev (expand (CPseudo f e (Some dfl))) t.
Proof. intros H. rewrite !(pseudo_call_sem f p dfl) by assumption. reflexivity. Qed.

(* A moving window is the iterated operation over its terms, whatever the operation: big is
   bigsum or bigprod, u its value on no terms.  The window of shift -(n+1) or n+1 has n+1
   terms, the i-th i periods back or ahead. *)
Lemma window_big (op : V -> V -> V) (u : V) (big : (nat -> V) -> nat -> V) :
  (forall g, big g O = u) -> (forall g m, big g (S m) = op (big g m) (g m)) -> (forall x, op u x = x) ->
  forall (F : Z -> V) back n, let s := toward back (Z.of_nat (S n)) in
  match Z.to_nat (Z.abs s) with O => vnum C 0 0 | S m => window C op F (sgn s) m end
  = big (fun i => F (toward back (Z.of_nat i))) (S n).
Proof.
  intros H0 HS Hu F back n s.
  replace (Z.to_nat (Z.abs s)) with (S n) by (unfold s, toward; destruct back; lia).
  replace (sgn s) with (toward back 1)
    by (replace (sgn s) with (Z.sgn s) by (destruct s; reflexivity); unfold s, toward; destruct back; lia).
  clear s. induction n as [|n IH]; rewrite HS.
  - rewrite H0, Hu. destruct back; reflexivity.
  - rewrite <- IH. cbn [window]. do 2 f_equal. unfold toward. destruct back; lia.
Qed.

Lemma movsum_formula f dfl (e : cexpr N) t back n :
  lookup_pseudo pseudo_resolution f = Some (Pmovsum, dfl) ->
  ev (expand (CPseudo f e (Some (toward back (Z.of_nat (S n)))))) t
  = bigsum (fun i => ev e (t + toward back (Z.of_nat i))) (S n).
Proof.
  intros H. rewrite (pseudo_call_sem _ _ _ _ _ _ H).
  apply (window_big (vadd C) (vnum C 0 0) bigsum); trivial. apply (Radd_0_l (proj1 L)).
Qed.

Lemma movavg_formula f dfl (e : cexpr N) t back n :
  lookup_pseudo pseudo_resolution f = Some (Pmovavg, dfl) ->
  ev (expand (CPseudo f e (Some (toward back (Z.of_nat (S n)))))) t
  = vdiv C (bigsum (fun i => ev e (t + toward back (Z.of_nat i))) (S n)) (vnum C (Z.of_nat (S n)) 0).
Proof.
  intros H. rewrite (pseudo_call_sem _ _ _ _ _ _ H). unfold pseudo_sem. f_equal.
  - apply (window_big (vadd C) (vnum C 0 0) bigsum); trivial. apply (Radd_0_l (proj1 L)).
  - f_equal. unfold resolve_shift, toward. destruct back; lia.
Qed.

Lemma movprod_formula f dfl (e : cexpr N) t back n :
  lookup_pseudo pseudo_resolution f = Some (Pmovprod, dfl) ->
  ev (expand (CPseudo f e (Some (toward back (Z.of_nat (S n)))))) t
  = bigprod (fun i => ev e (t + toward back (Z.of_nat i))) (S n).
Proof.
  intros H. rewrite (pseudo_call_sem _ _ _ _ _ _ H).
  apply (window_big (vmul C) (vnum C 1 0) bigprod); trivial. apply (Rmul_1_l (proj1 L)).
Qed.

End CallFormulas.

Definition pseudo_formulas_statement (C : carrier) : Prop :=
  forall (N : Type) (rho : N -> Z -> val C) (e : cexpr N) (t : Z),
  let ev := sem C rho in
  (forall k, ev (expand (CPseudo "shift" e (Some k))) t = ev e (t + k)) /\
  (forall k, ev (expand (CPseudo "diff" e (Some k))) t = vsub C (ev e t) (ev e (t + k))) /\
  (forall k, ev (expand (CPseudo "diff_log" e (Some k))) t = vsub C (vfun C "log" [ev e t]) (vfun C "log" [ev e (t + k)])) /\
  (forall k, ev (expand (CPseudo "difflog" e (Some k))) t = vsub C (vfun C "log" [ev e t]) (vfun C "log" [ev e (t + k)])) /\
  (forall k, ev (expand (CPseudo "pct" e (Some k))) t
             = vmul C (vnum C 100 0) (vsub C (vdiv C (ev e t) (ev e (t + k))) (vnum C 1 0))) /\
  (forall k, ev (expand (CPseudo "roc" e (Some k))) t = vdiv C (ev e t) (ev e (t + k))) /\
  (forall n f, In f ["mov_sum"; "movsum"]%string ->
     ev (expand (CPseudo f e (Some (- Z.of_nat (S n))))) t = bigsum C (fun i => ev e (t - Z.of_nat i)) (S n) /\
     ev (expand (CPseudo f e (Some (Z.of_nat (S n))))) t = bigsum C (fun i => ev e (t + Z.of_nat i)) (S n)) /\
  (forall n f, In f ["mov_avg"; "movavg"]%string ->
     ev (expand (CPseudo f e (Some (- Z.of_nat (S n))))) t
       = vdiv C (bigsum C (fun i => ev e (t - Z.of_nat i)) (S n)) (vnum C (Z.of_nat (S n)) 0)) /\
  (forall n f, In f ["mov_prod"; "movprod"]%string ->
     ev (expand (CPseudo f e (Some (- Z.of_nat (S n))))) t = bigprod C (fun i => ev e (t - Z.of_nat i)) (S n)) /\
  (forall f, In f ["shift"; "diff"; "diff_log"; "difflog"; "pct"; "roc"]%string ->
     ev (expand (CPseudo f e None)) t = ev (expand (CPseudo f e (Some (-1)))) t) /\
  (forall f, In f ["mov_sum"; "movsum"; "mov_avg"; "movavg"; "mov_prod"; "movprod"]%string ->
     ev (expand (CPseudo f e None)) t = ev (expand (CPseudo f e (Some (-4)))) t).

Open Scope string_scope.
Definition example_source : source :=
  [DText (IKeyword (BQty QTransitionVariable 2));
   DFor "?c" [TokName [Lit "a"]; TokName [Lit "b"]] ; DText (IQty [Lit "Var "; Ctl "?c" VPlain] [Lit "y_"; Ctl "?c" VPlain] (Some "g")); DEnd;
   DText (IKeyword (BQty QTransitionShock 0)); DText (IQty [] [Lit "e"] None);
   DText (IKeyword (BQty QParameter 0)); DText (IQty [] [Lit "rho"] None);
   DText (IKeyword (BLog false 0)); DText (ILogList "g");
   DText (IKeyword (BEqn KTransition 0));
   DFor "?c" [TokName [Lit "a"]; TokName [Lit "b"]];
     DText (IEqn [] (mkSide (EName [Lit "y_"; Ctl "?c" VPlain] (ShZ 0 Curly)) false
                            (EBin Add Caret (EBin Mul Caret (EName [Lit "rho"] (ShZ 0 Curly)) (EPseudo "diff" (EName [Lit "y_"; Ctl "?c" VPlain] (ShZ (-1) Curly)) None))
                                            (EName [Lit "e"] (ShZ 0 Square)))
                            [DIf (CdStrEq [Ctl "?c" VPlain] "b" false); DText (true, EName [Lit "y_a"] (ShZ 1 Curly)); DEnd])
                 None);
   DEnd].

Example example_compiles :
  compile [] true 100 example_source =
  COk (mkModel
    [mkQ "y_a" QTransitionVariable "Var a" (Some true); mkQ "y_b" QTransitionVariable "Var b" (Some true);
     mkQ "e" QTransitionShock "" None; mkQ "ant_e" QAnticipatedShockValue "(Anticipated value) e" None;
     mkQ "rho" QParameter "" None; mkQ "std_e" QTransitionStd "(Std) e" None]
    [CBin Add (CBin Add (CNeg (CName 0 0)) (CBin Mul (CName 4 0) (CBin Sub (CName 0 (-1)) (CName 0 (-2)))))
              (CBin Add (CName 2 0) (CName 3 0));
     CBin Add (CBin Add (CBin Add (CNeg (CName 1 0)) (CBin Mul (CName 4 0) (CBin Sub (CName 1 (-1)) (CName 1 (-2)))))
                        (CBin Add (CName 2 0) (CName 3 0)))
              (CName 0 1)]
    [CBin Add (CBin Add (CNeg (CName 0 0)) (CBin Mul (CName 4 0) (CBin Sub (CName 0 (-1)) (CName 0 (-2))))) (CName 2 0);
     CBin Add (CBin Add (CBin Add (CNeg (CName 1 0)) (CBin Mul (CName 4 0) (CBin Sub (CName 1 (-1)) (CName 1 (-2))))) (CName 2 0))
              (CName 0 1)]
    [""; ""]).
Proof. vm_compute. reflexivity. Qed.

Definition QcC : carrier := {|
  val := Qc;
  vadd := Qcplus; vsub := Qcminus; vmul := Qcmult; vdiv := Qcdiv; vpow := fun x _ => x; vneg := Qcopp;
  vnum := fun m d => Q2Qc (m # Pos.of_nat (Nat.pow 10 d));
  vfun := fun _ args => match args with x :: _ => x | [] => Q2Qc 0 end |}.

Lemma QcC_lawful : lawful QcC Qcinv.
Proof.
  split.
  - assert (E0 : vnum QcC 0 0 = 0%Qc) by (apply Qc_is_canon; reflexivity).
    assert (E1 : vnum QcC 1 0 = 1%Qc) by (apply Qc_is_canon; reflexivity).
    rewrite E0, E1. exact Qcrt.
  - intros x y. reflexivity.
Qed.


