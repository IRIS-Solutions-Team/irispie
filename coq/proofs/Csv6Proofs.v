(* C19: an explicit period list (span= / frequency_span=) with REPEATED periods.
   The import reads dated rows with last-wins semantics (Series.set_data: last_assoc), so the series that
   comes back depends only on the SET of selected periods: repeats and order change nothing. *)
From Coq Require Import ZArith List.
From Verif Require Import lib.Arith model.Series proofs.SeriesProofs proofs.CsvProofs proofs.Csv5Proofs.
Import ListNotations.
Open Scope Z_scope.

Section Csv6.
Variable A : Arith.
Hypothesis miss_law : forall x : car A, is_miss A x = true -> x = miss A.
Hypothesis miss_is_miss : is_miss A (miss A) = true.
Variable rnd : car A -> car A.

Theorem imp_series_periods_as_set f ps ps' (s : series A) : WF A s -> (forall t, In t ps <-> In t ps') ->
  imp_series A rnd f ps s = imp_series A rnd f ps' s.
Proof.
  intros Hwf Hset.
  destruct (imp_series_spec A miss_law rnd f ps s Hwf) as (W1 & T1 & N1 & R1 & _).
  destruct (imp_series_spec A miss_law rnd f ps' s Hwf) as (W2 & T2 & N2 & R2 & _).
  assert (Hrow : forall t, row_at A (imp_series A rnd f ps s) t = row_at A (imp_series A rnd f ps' s) t).
  { intros t. rewrite R1, R2.
    destruct (in_dec Z.eq_dec t ps) as [i1|n1], (in_dec Z.eq_dec t ps') as [i2|n2]; try reflexivity; exfalso.
    - apply n2, Hset, i1.
    - apply n1, Hset, i2. }
  assert (Hsd : s_start (imp_series A rnd f ps s) = s_start (imp_series A rnd f ps' s)
                /\ s_data (imp_series A rnd f ps s) = s_data (imp_series A rnd f ps' s)).
  { eapply trimmed_ext; eassumption. }
  destruct Hsd as [Hs Hd].
  apply (series_eq A); [|assumption|congruence|assumption]. now rewrite !imp_series_freq, Hs.
Qed.

Corollary imp_series_repeat_last f ps t (s : series A) : WF A s -> In t ps ->
  imp_series A rnd f (ps ++ [t]) s = imp_series A rnd f ps s.
Proof.
  intros Hwf Hin. apply imp_series_periods_as_set; [assumption|]. intros x. rewrite in_app_iff. cbn [In].
  split; [intros [H|[<-|[]]]; assumption|intros H; now left].
Qed.

End Csv6.

(* non-vacuity: periods [10; 11; 10] *)
From Verif Require Import lib.ArithOptZ.
Module Csv6Examples.
Example repeated_period_same_series :
  imp_series OZArith (fun x => x) 1 [10; 11; 10] s5 = imp_series OZArith (fun x => x) 1 [10; 11] s5
  /\ ~ NoDup [10; 11; 10].
Proof. split; [reflexivity|]. intros H. inversion H as [|? ? Hn _]; subst. apply Hn. cbn. auto. Qed.
End Csv6Examples.
