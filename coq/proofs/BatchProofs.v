(* C03, stretch: the filter equals batch conditioning.
   The joint Gaussian law of (alpha_t, Y_t), Y_t the stacked observations of periods 1..t, is built by
   the two textbook rules of linear-Gaussian models (push-forward through the transition equation,
   augmentation by a new linear observation); by induction over the periods, the filter's updated
   moments are the conditional moments of alpha_t given Y_t under that joint law, and the
   prediction-error likelihood is the negative log density of Y_t. *)
From mathcomp Require Import all_ssreflect all_algebra.
From mathcomp Require Import ring.
From Verif.lib Require Import MatOps MatMC MatLemmas.
From Verif.model Require Import Kalman.
From Verif.proofs Require Import KalmanProofs.
Set Implicit Arguments.
Unset Strict Implicit.
Unset Printing Implicit Defensive.
Import GRing.Theory Num.Theory.
Local Open Scope ring_scope.

Section Batch.
Variable F : realFieldType.
Variables (flog : F -> F) (flog2pi : F).
Notation M := (MC flog flog2pi).
Variables n nw : nat.
Notation period := (period M n nw).
Notation fper := (fper M n nw).
Notation kstep := (@kf_step M n nw).
Notation krun := (@kf_run M n nw).
Notation step_spec := (@step_spec F flog flog2pi n nw).
Notation ok_period := (@ok_period F flog flog2pi n nw).
Notation all_ok := (@all_ok F flog flog2pi n nw).
Notation all_unit := (@all_unit F flog flog2pi n nw).
Notation v_term := (@v_term F flog flog2pi n nw).
Hypothesis flogM : forall x y : F, x != 0 -> y != 0 -> flog (x * y) = flog x + flog y.

(* joint moments of (alpha, Y): means, Cov(alpha), Cov(alpha, Y), Cov(Y), and the observed value of Y *)
Record joint (N : nat) : Type := Joint {
  j_ma : 'cV[F]_n; j_mY : 'cV[F]_N;
  j_Caa : 'M[F]_n; j_CaY : 'M[F]_(n, N); j_CYY : 'M[F]_N;
  j_Y : 'cV[F]_N
}.

(* alpha_t = T alpha_{t-1} + K + P u_t + v, u_t independent of (alpha_{t-1}, Y) *)
Definition jpredict (p : period) N (j : joint N) : joint N :=
  Joint (p_T p *m j_ma j + p_K p + P_u0 (p_us p) + v_term p) (j_mY j)
        (p_T p *m j_Caa j *m (p_T p)^T + P_cov_u_Pt (p_us p)) (p_T p *m j_CaY j) (j_CYY j) (j_Y j).

(* y_t = Z alpha_t + D + H w_t appended to Y, w_t independent of (alpha_t, Y) *)
Definition jobserve (p : period) N (j : joint N) : joint (N + p_ny p) :=
  let CYy := (j_CaY j)^T *m (p_Z p)^T in
  Joint (j_ma j) (col_mx (j_mY j) (p_Z p *m j_ma j + p_D p + p_H p *m p_w0 p))
        (j_Caa j) (row_mx (j_CaY j) (j_Caa j *m (p_Z p)^T))
        (block_mx (j_CYY j) CYy CYy^T (p_Z p *m j_Caa j *m (p_Z p)^T + p_H p *m p_cov_w p *m (p_H p)^T))
        (col_mx (j_Y j) (p_y p)).

Definition jstep (p : period) N (j : joint N) : joint (N + p_ny p) := jobserve p (jpredict p j).

Fixpoint jrun N (j : joint N) (ps : seq period) : {N' : nat & joint N'} :=
  if ps is p :: ps' then jrun (jstep p j) ps' else existT _ N j.

(* before any observation *)
Definition j0 (a : 'cV[F]_n) (Q : 'M[F]_n) : joint 0 := Joint a 0 Q 0 0 0.

(* the filter state (a, Q) is the conditional law of alpha given Y = j_Y under the joint j *)
Definition filtered N (j : joint N) (a : 'cV[F]_n) (Q : 'M[F]_n) : Prop :=
  [/\ a = cond_mean (j_ma j) (j_mY j) (j_CaY j) (j_CYY j) (j_Y j),
      Q = cond_cov (j_Caa j) (j_CaY j) (j_CYY j),
      is_sym (j_Caa j), is_sym (j_CYY j) & j_CYY j \in unitmx].

Lemma filtered0 a Q : is_sym Q -> filtered (j0 a Q) a Q.
Proof.
move=> sQ; split=> //=.
- by rewrite /cond_mean mul_thin_flat ?mul0mx addr0.
- by rewrite /cond_cov mul_thin_flat ?mul0mx subr0.
- exact: sym0.
- by rewrite unitmxE det_mx00 unitr1.
Qed.

Lemma sym_block n1 n2 (A : 'M[F]_n1) (B : 'M[F]_(n1, n2)) (D : 'M[F]_n2) :
  is_sym A -> is_sym D -> is_sym (block_mx A B B^T D).
Proof. by rewrite /is_sym => sA sD; rewrite tr_block_mx trmxK sA sD. Qed.

Section Step.
Variables (N : nat) (j : joint N) (a : 'cV[F]_n) (Q : 'M[F]_n) (p : period) (f : frec p).
Hypothesis fj : filtered j a Q.
Hypothesis sp : step_spec a Q f.
Hypothesis okp : ok_period p.
Hypothesis uF : f_F f \in unitmx.

Let j' := jpredict p j.
Let Ci := invmx (j_CYY j).
Let e := j_Y j - j_mY j.

Lemma pred_mean : f_a0 f = cond_mean (j_ma j') (j_mY j') (j_CaY j') (j_CYY j') (j_Y j').
Proof.
by have [Ea _ _ _ _] := fj; rewrite (sp_a0 sp) {1}Ea -!addrA cond_mean_affine !addrA.
Qed.

Lemma pred_cov : f_Q0 f = cond_cov (j_Caa j') (j_CaY j') (j_CYY j').
Proof.
by have [_ EQ _ _ _] := fj; rewrite (sp_Q0 sp) {1}EQ cond_cov_affine.
Qed.

Lemma pred_sym : is_sym (j_Caa j').
Proof.
have [_ _ sC _ _] := fj; apply: sym_add; first exact: sym_congr.
by apply: P_cov_u_Pt_sym; case: okp.
Qed.

(* the pieces of the tower law for x = alpha_t, y1 = Y (past data), y2 = y_t *)
Let m2 := p_Z p *m j_ma j' + p_D p + p_H p *m p_w0 p.
Let S12 := (j_CaY j')^T *m (p_Z p)^T.
Let S22 := p_Z p *m j_Caa j' *m (p_Z p)^T + p_H p *m p_cov_w p *m (p_H p)^T.

Lemma S12t : S12^T = p_Z p *m j_CaY j'.
Proof. by rewrite /S12 trmx_mul !trmxK. Qed.

Lemma obs_mean : cond_mean m2 (j_mY j) S12^T (j_CYY j) (j_Y j) = f_y0 f.
Proof.
by rewrite S12t (sp_y0 sp) pred_mean -[RHS]addrA cond_mean_affine addrA.
Qed.

Lemma obs_cross : cond_cross (j_Caa j' *m (p_Z p)^T) (j_CaY j') (j_CYY j) S12^T = f_Q0 f *m (p_Z p)^T.
Proof.
by rewrite S12t cond_cross_mulr -pred_cov.
Qed.

Lemma obs_cov : cond_cov S22 S12^T (j_CYY j) = f_F f.
Proof.
by rewrite S12t (sp_F sp) pred_cov cond_cov_affine.
Qed.

Let j'' := jstep p j.

Lemma CYY_unit : j_CYY j \in unitmx. Proof. by case: fj. Qed.
Lemma CYY_sym : is_sym (j_CYY j). Proof. by case: fj. Qed.

Lemma S221_unit : cond_cov S22 S12^T (j_CYY j) \in unitmx.
Proof. by rewrite obs_cov. Qed.

(* the filter's update = conditioning on the stacked data (Y, y_t) *)
Theorem step_filtered : filtered j'' (f_a1 f) (f_Q1 f).
Proof.
have [_ _ [_ _] Ea1 EQ1] := step_is_conditioning sp.
split.
- rewrite Ea1 -obs_mean -obs_cross -obs_cov pred_mean.
  exact: (tower_mean _ _ _ _ _ _ _ CYY_unit S221_unit).
- rewrite EQ1 -obs_cross -obs_cov pred_cov.
  exact: (tower_cov _ _ _ CYY_unit S221_unit CYY_sym).
- exact: pred_sym.
- apply: sym_block; first exact: CYY_sym.
  apply: sym_add; first by apply: sym_congr; exact: pred_sym.
  by apply: sym_congr; case: okp.
- exact: (tower_unit CYY_unit S221_unit).
Qed.

(* ... and the density of the stacked data factorises: nll(Y, y_t) = nll(Y) + contribution_t *)
Theorem step_nll :
  nll_gauss flog flog2pi (j_mY j'') (j_CYY j'') (j_Y j'')
  = nll_gauss flog flog2pi (j_mY j) (j_CYY j) (j_Y j) + @contribution M n nw 1 (mkFper p f).
Proof.
rewrite (contribution_is_nll flogM sp uF) -obs_mean -obs_cov.
exact: (tower_nll _ _ _ _ _ flogM CYY_sym CYY_unit S221_unit).
Qed.

End Step.

Lemma filtered_sym N (j : joint N) a Q : filtered j a Q -> is_sym Q.
Proof.
case=> _ -> sC sY _; apply: sym_sub => //.
by apply: sym_congr; apply: sym_inv.
Qed.

(* the updated moments after the last period of a run *)
Fixpoint last_state (a : 'cV[F]_n) (Q : 'M[F]_n) (fs : seq fper) : 'cV[F]_n * 'M[F]_n :=
  if fs is x :: fs' then last_state (f_a1 (ff x)) (f_Q1 (ff x)) fs' else (a, Q).

Theorem filter_is_batch_from N (j : joint N) a Q ps :
  filtered j a Q -> all_ok ps -> all_unit (krun a Q ps) ->
  let j' := tagged (jrun j ps) in
  filtered j' (last_state a Q (krun a Q ps)).1 (last_state a Q (krun a Q ps)).2
  /\ nll_gauss flog flog2pi (j_mY j') (j_CYY j') (j_Y j')
     = nll_gauss flog flog2pi (j_mY j) (j_CYY j) (j_Y j)
       + \sum_(x <- krun a Q ps) @contribution M n nw 1 x.
Proof.
elim: ps N j a Q => [|p ps IH] N j a Q fj; first by rewrite /= big_nil addr0.
case=> okp okps; rewrite krun_cons; case=> uF uFs.
have sp := kf_step_spec a (filtered_sym fj) okp.
have fj' := step_filtered fj sp okp uF.
have [IH1 IH2] := IH _ _ _ _ fj' okps uFs.
split; first exact: IH1.
by rewrite [LHS]IH2 (step_nll fj sp uF) big_cons addrA.
Qed.

(* C03 stretch: from the initial law (a, Q): after any number of periods, the filter's updated moments
   are the conditional moments of the state given all data so far under the model's joint Gaussian
   law, and the likelihood the filter reports is the negative log density of the stacked data *)
Theorem filter_is_batch a Q ps :
  is_sym Q -> all_ok ps -> all_unit (krun a Q ps) ->
  let j := tagged (jrun (j0 a Q) ps) in
  filtered j (last_state a Q (krun a Q ps)).1 (last_state a Q (krun a Q ps)).2
  /\ l_nll (likelihood false (krun a Q ps)) = nll_gauss flog flog2pi (j_mY j) (j_CYY j) (j_Y j).
Proof.
move=> sQ ok uF; have [H1 H2] := filter_is_batch_from (filtered0 a sQ) ok uF.
split; first exact: H1.
rewrite H2 (nll_is_sum flogM).
by rewrite /nll_gauss /= det_mx00 (flog1 flogM) /maha mul_thin_flat ?mul0mx mxE mul0r !addr0 mulr0 add0r.
Qed.

End Batch.

(* non-vacuity: a concrete one-dimensional period meets every hypothesis used above
   (symmetric Q, ok periods, invertible F) *)
Section NonVacuity.
Variable F : realFieldType.
Variables (flog : F -> F) (flog2pi : F).
Notation M := (MC flog flog2pi).

Definition ex_period (y : F) : period M 1 1 :=
  @mkPeriod M 1 1 1 1%:M 0 (@UP M 1 1 1%:M 1%:M 0) None 1%:M 1%:M 0 1%:M 0 y%:M.

Local Opaque kf_step.

Lemma ex_hypotheses (y1 y2 : F) :
  let ps := [:: ex_period y1; ex_period y2] in
  let Q : 'M[F]_1 := 1%:M in
  [/\ is_sym Q, all_ok ps & all_unit (@kf_run M 1 1 0 Q ps)].
Proof.
have s1 : is_sym (1%:M : 'M[F]_1) by rewrite /is_sym tr_scalar_mx.
have okp y : ok_period (ex_period y) by split.
split=> //.
have unit_of (a : 'cV[F]_1) (Q : 'M[F]_1) y (c : F) : 0 < c -> Q = c%:M ->
    f_F (@kf_step M 1 1 a Q (ex_period y)) \in unitmx
    /\ exists2 c', 0 < c' & f_Q1 (@kf_step M 1 1 a Q (ex_period y)) = c'%:M.
  move=> c0 EQ; have sQ : is_sym Q by rewrite EQ /is_sym tr_scalar_mx.
  have sp := kf_step_spec a sQ (okp y).
  have E0 : f_Q0 (@kf_step M 1 1 a Q (ex_period y)) = (c + 1)%:M.
    by rewrite (sp_Q0 sp) /= EQ tr_scalar_mx !mul1mx !mulmx1 -raddfD.
  have EF : f_F (@kf_step M 1 1 a Q (ex_period y)) = (c + 1 + 1)%:M.
    by rewrite (sp_F sp) E0 /= tr_scalar_mx !mul1mx !mulmx1 -raddfD.
  have pos1 : 0 < c + 1 by rewrite addr_gt0 ?ltr01.
  have pos : 0 < c + 1 + 1 by rewrite addr_gt0 ?ltr01.
  split; first by rewrite EF unitmxE det_scalar1 unitfE lt0r_neq0.
  exists ((c + 1) - (c + 1) * (c + 1 + 1)^-1 * (c + 1)).
    have -> : c + 1 - (c + 1) * (c + 1 + 1)^-1 * (c + 1) = (c + 1) / (c + 1 + 1).
      by field; rewrite lt0r_neq0.
    by rewrite divr_gt0.
  by rewrite (sp_Q1 sp) (sp_G sp) (sp_Fi sp) EF E0 /= tr_scalar_mx mul1mx mulmx1 invmx_scalar -!scalar_mxM -raddfB.
rewrite 2!krun_cons.
have [u1 [c1 c1pos E1]] := unit_of 0 1%:M y1 1 ltr01 erefl.
have [u2 _] := unit_of (f_a1 (@kf_step M 1 1 0 1%:M (ex_period y1))) _ y2 c1 c1pos E1.
by split; [exact: u1 | split; [exact: u2 | ]].
Qed.

End NonVacuity.
