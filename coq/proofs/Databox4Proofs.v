(* C19: merge of ANY list of databoxes in one call (databoxes/_merge.py: the loop
   `for t in other: for key, value in t.items(): if key in self: strategy(...) else: self[key] = value`,
   whose membership test is against the CURRENT keys): the call is a chain of single-databox merges, and every key
   holds the strategy folded over all its occurrences.  The theorems about d_merge are in props/C19.v. *)
From Coq Require Import String ZArith List.
From Verif Require Import lib.Arith model.Series model.Databox proofs.DataboxProofs.
Import ListNotations.
Open Scope Z_scope.

Section Merge4.
Variable A : Arith.
Notation databox := (databox A).
Notation item := (item A).

(* db --o1--> d1 --o2--> ... --on--> db' : every link is a single-databox merge in the sense of [merged] *)
Inductive merge_chain (st : strategy) : databox -> list databox -> databox -> Prop :=
  | mc_nil db : merge_chain st db [] db
  | mc_cons db o os d1 db' : ND A d1 -> (forall k, merged A st db o k (dget A d1 k)) ->
                             merge_chain st d1 os db' -> merge_chain st db (o :: os) db'.

(* one call with several databoxes = the databoxes merged one after the other, each against the keys present
   at that moment *)
Lemma merge_many_fold st others : forall db dup db' dup', ND A db -> Forall (ND A) others ->
  fold_left (merge_step A st) (List.concat others) (Ok (db, dup)) = Ok (db', dup') ->
  ND A db' /\ merge_chain st db others db'.
Proof.
  induction others as [|o r IH]; intros db dup db' dup' Hnd Hall H; cbn [List.concat fold_left] in H.
  - inversion H; subst. split; [assumption|constructor].
  - inversion Hall as [|? ? Ho Hr]; subst. rewrite fold_left_app in H.
    destruct (fold_left (merge_step A st) o (Ok (db, dup))) as [[d1 dup1]|e] eqn:E;
      [|rewrite fold_res_err in H by reflexivity; discriminate].
    pose proof (concat_ND_fold A st o db dup d1 dup1 Hnd E) as Hnd1.
    destruct (IH d1 dup1 db' dup' Hnd1 Hr H) as [Hnd' Hch]. split; [assumption|].
    econstructor; [exact Hnd1| |exact Hch]. exact (merge_fold_spec A st o db dup d1 dup1 Ho E).
Qed.

(* ... hence the item under every key is the strategy folded over ALL occurrences of the key, in the order of
   the databoxes, starting from the target's own item -- also for a key that is new to the target and occurs in
   two of the merged databoxes *)
Fixpoint merge_key (st : strategy) (cur : option item) (vs : list item) : res (option item) :=
  match vs with
  | [] => Ok cur
  | v :: r => match cur with
              | None => merge_key st (Some v) r
              | Some c => match merge_val A st c v with Ok it => merge_key st (Some it) r | Err e => Err e end
              end
  end.

Definition occurrences (others : list databox) (k : string) : list item :=
  flat_map (fun o => match dget A o k with Some v => [v] | None => [] end) others.

Lemma merge_chain_key st db others db' : merge_chain st db others db' ->
  forall k, merge_key st (dget A db k) (occurrences others k) = Ok (dget A db' k).
Proof.
  induction 1 as [db|db o os d1 db' Hnd Hm Hch IH]; intros k; [reflexivity|].
  unfold occurrences. cbn [flat_map]. fold (occurrences os k).
  specialize (Hm k). specialize (IH k). unfold merged in Hm.
  destruct (dget A o k) as [v|]; cbn [app].
  - destruct (dget A db k) as [cur|]; cbn [merge_key].
    + destruct Hm as (it & Em & Ed). rewrite Em. rewrite Ed in IH. exact IH.
    + rewrite Hm in IH. exact IH.
  - rewrite Hm in IH. exact IH.
Qed.

End Merge4.

(* non-vacuity: three databoxes, key "k" new to the target and present in the 2nd and 3rd *)
From Verif Require Import lib.ArithOptZ.
Module Merge4Examples.
Definition es (z : Z) : elem OZArith := @EScal OZArith (Some z).
Definition sc (z : Z) : item OZArith := INon (es z).
Example stack_collects_all :
  d_merge OZArith [("a"%string, sc 1)] [[("k"%string, sc 2)]; [("k"%string, sc 3); ("a"%string, sc 4)]; [("k"%string, sc 5)]] MStack
  = Ok [("a"%string, IList [es 1; es 4]); ("k"%string, IList [es 2; es 3; es 5])].
Proof. reflexivity. Qed.
Example discard_keeps_first :
  d_merge OZArith [] [[("k"%string, sc 2)]; [("k"%string, sc 3)]] MDiscard = Ok [("k"%string, sc 2)].
Proof. reflexivity. Qed.
Example error_on_duplicate_among_others :
  d_merge OZArith [] [[("k"%string, sc 2)]; [("k"%string, sc 3)]] (MReport true) = Err 2%nat.
Proof. reflexivity. Qed.
End Merge4Examples.
