(* Unknown initial condition (unit roots, diffuse_method="fixed_unknown"): correcting the cached filter
   run for an estimate delta of the unknown part of the initial state (correct_for_unknown_init with the
   Xi recursion of predict) gives exactly the filter run started from the initial mean a + Xi_init delta.
   Hence every theorem about runs (C03: conditioning, likelihood; C08: smoother identities) applies to the
   corrected run.  The estimate itself solves the GLS normal equations stated here. *)
From mathcomp Require Import all_ssreflect all_algebra.
From Verif.lib Require Import MatOps MatMC MatLemmas.
From Verif.model Require Import Kalman.
From Verif.proofs Require Import KalmanStepEqs KalmanProofs.
Set Implicit Arguments.
Unset Strict Implicit.
Unset Printing Implicit Defensive.
Import GRing.Theory Num.Theory.
Local Open Scope ring_scope.

Section UnknownInit.
Variable F : realFieldType.
Variables (flog : F -> F) (flog2pi : F).
Notation M := (MC flog flog2pi).
Variables n nw k : nat.
Notation period := (period M n nw).
Notation fper := (fper M n nw).
Notation kstep := (@kf_step M n nw).
Notation krun := (@kf_run M n nw).
Implicit Types (p : period) (a d : 'cV[F]_n) (Q : 'M[F]_n) (Xi : 'M[F]_(n, k)) (delta : 'cV[F]_k).

Lemma shift_step a d Q p Xi delta : p_T p *m d = Xi *m delta ->
  kstep (a + d) Q p = ff (@correct_step M n nw k delta (mkFper p (kstep a Q p)) Xi).
Proof.
move=> Hd; apply: (@step_eqs_inj M n nw (a + d) Q p _ _ (kf_step_eqs M (a + d) Q p)).
have := kf_step_eqs M a Q p; move: (kstep a Q p) => f [eQ0 eF eFi ea0 ey0 eZ eG eQ1 epe ea1 eP eH].
split; rewrite /correct_step //=.   (* the covariance fields are unchanged; left: a0, y0, pe *)
- by rewrite ea0; case: (p_v p) => [v|] /=; rewrite mulmxDr Hd; mx_abel.
- by rewrite ey0 /= mulmxDr mulmxA; mx_abel.
- by rewrite epe /= opprD addrA.
Qed.

Lemma a1E a Q p : f_a1 (kstep a Q p) = f_a0 (kstep a Q p) + f_G (kstep a Q p) *m f_pe (kstep a Q p).
Proof. by []. Qed.

(* from here on a step is used only through shift_step and a1E *)
Local Opaque kf_step.

(* what the correction adds to the updated mean of the previous period, in terms of the Xi recursion *)
Definition prev_shift (prev : option fper) Xi delta : 'cV[F]_n :=
  match prev with
  | None => Xi *m delta
  | Some y => (Xi - f_G (ff y) *m p_Z (fp y) *m Xi) *m delta
  end.

Lemma correct_is_rerun_from a Q ps prev Xi delta :
  map2 (@correct_step M n nw k delta) (krun a Q ps) (@xi_run M n nw k Xi prev (krun a Q ps))
  = krun (a + prev_shift prev Xi delta) Q ps.
Proof.
elim: ps a Q prev Xi => [|p ps IH] a Q prev Xi; first by [].
pose Xi' := match prev with
            | None => p_T p *m Xi
            | Some y => (p_T p - p_T p *m f_G (ff y) *m p_Z (fp y)) *m Xi
            end.
have Hd : p_T p *m prev_shift prev Xi delta = Xi' *m delta.
  rewrite /prev_shift /Xi'; case: (prev) => [y|]; last by rewrite mulmxA.
  by rewrite !(mulmxBr, mulmxBl) !mulmxA.
rewrite (krun_cons (a + _)) (shift_step a Q Hd) krun_cons.
have := a1E a Q p; move: (kstep a Q p) => f Ef.
rewrite [LHS]/= -/Xi' IH; congr (_ :: krun _ _ _).
by rewrite /correct_step /prev_shift /= Ef; mx_expand; mx_abel.
Qed.

(* C08 / C03 for unit-root models: the corrected cache is the filter run from the corrected initial mean *)
Theorem correct_is_rerun a Q ps Xi delta :
  map2 (@correct_step M n nw k delta) (krun a Q ps) (@xi_run M n nw k Xi None (krun a Q ps))
  = krun (a + Xi *m delta) Q ps.
Proof. exact: (correct_is_rerun_from a Q ps None Xi delta). Qed.

(* the GLS normal equations  (sum M_t' F_t^-1 M_t) delta = sum M_t' F_t^-1 pe_t,  M_t = Z_t Xi_t, which
   estimate_unknown_init solves whenever the system is non-singular (props/C08.v) *)
Definition gls_terms (fs : seq fper) (Xis : seq 'M[F]_(n, k)) :=
  map2 (fun (x : fper) (Xi : 'M[F]_(n, k)) =>
          let Mt := p_Z (fp x) *m Xi in let Mt_Fi := Mt^T *m f_Fi (ff x) in
          (Mt_Fi *m Mt, Mt_Fi *m f_pe (ff x))) fs Xis.
Definition gls_S fs Xis : 'M[F]_k := @symmetrize M k (@sum_mx M k k (List.map fst (gls_terms fs Xis))).
Definition gls_b fs Xis : 'cV[F]_k := @sum_mx M k 1 (List.map snd (gls_terms fs Xis)).

End UnknownInit.
