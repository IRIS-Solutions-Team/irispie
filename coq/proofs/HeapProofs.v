(* C20  Non-interference of two parties on a heap without shared mutable objects,
   and soundness of the executable checker. *)
From Coq Require Import ZArith List Bool PArith FMapPositive.
From Verif Require Import model.Heap.
Import ListNotations.

(* ------------------------------------------------------------------ basic facts *)

Lemma upd_same : forall g l nd, upd g l nd l = Some nd.
Proof. intros. unfold upd. rewrite Pos.eqb_refl. reflexivity. Qed.

Lemma upd_other : forall g l nd x, x <> l -> upd g l nd x = g x.
Proof. intros g l nd x H. unfold upd. destruct (Pos.eqb_spec x l); [contradiction | reflexivity]. Qed.

Lemma upd_pres : forall g l nd x, g x <> None -> upd g l nd x <> None.
Proof.
  intros g l nd x H. destruct (Pos.eq_dec x l) as [-> | N].
  - rewrite upd_same. discriminate.
  - rewrite upd_other by assumption. assumption.
Qed.

Lemma reach_trans : forall g a b c, reach g a b -> reach g b c -> reach g a c.
Proof.
  intros g a b c H1 H2. revert H1. induction H2 as [r | r l nd c H IH Hl Hc]; intros H1.
  - assumption.
  - eapply reach_step; [apply IH; assumption | exact Hl | exact Hc].
Qed.

Lemma reach_child : forall g r nd c l,
  g r = Some nd -> In c (n_children nd) -> reach g c l -> reach g r l.
Proof.
  intros g r nd c l Hr Hc H. eapply reach_trans; [ | exact H].
  eapply reach_step; [apply reach_refl | exact Hr | exact Hc].
Qed.

Lemma acc_root : forall g R r, In r R -> acc g R r.
Proof. intros g R r H. exists r. split; [assumption | apply reach_refl]. Qed.

Lemma acc_child : forall g r nd c, g r = Some nd -> In c (n_children nd) -> acc g [r] c.
Proof.
  intros g r nd c Hr Hc. exists r. split; [left; reflexivity | ].
  eapply reach_step; [apply reach_refl | exact Hr | exact Hc].
Qed.

(* the holder of r overwrites a mutable child of r *)
Lemma write_child : forall g r nd0 l nd nd',
  g r = Some nd0 -> In l (n_children nd0) -> g l = Some nd -> n_mut nd = true ->
  n_mut nd' = n_mut nd -> n_kind nd' = n_kind nd ->
  (forall c, In c (n_children nd') -> In c (n_children nd0)) ->
  step (g, [r]) (upd g l nd', [r]).
Proof.
  intros g r nd0 l nd nd' Hr Hl Hnd Hm Hm' Hk Hch.
  apply (step_write g [r] l nd nd'); eauto using acc_child.
Qed.

Lemma acc_exists : forall g R,
  wf g -> (forall r, In r R -> g r <> None) -> forall l, acc g R l -> g l <> None.
Proof.
  intros g R Hwf Hr l [r [Hin H]]. induction H.
  - apply Hr. assumption.
  - eapply Hwf; eauto.
Qed.

(* ------------------------------------------------------------------ locality of reachability *)

(* what is reachable from r depends only on the part of the heap reachable from r *)
Lemma reach_local : forall g g' r,
  (forall x, reach g r x -> g' x = g x) -> forall x, reach g' r x <-> reach g r x.
Proof.
  intros g g' r H x. split; intros Hx; induction Hx as [r | r x nd c Hx IH Hnd Hc]; try apply reach_refl;
    specialize (IH H); (eapply reach_step; [exact IH | | exact Hc]).
  - rewrite <- (H x IH). exact Hnd.
  - rewrite (H x Hx). exact Hnd.
Qed.

Lemma acc_local : forall g g' R,
  (forall x, acc g R x -> g' x = g x) -> forall x, acc g' R x <-> acc g R x.
Proof.
  intros g g' R H x.
  split; intros [r [Hin Hx]]; exists r; (split; [exact Hin | ]); apply (reach_local g g' r); try assumption;
    intros y Hy; apply H; exists r; split; assumption.
Qed.

(* ------------------------------------------------------------------ effect of one update *)

(* the acting party: what it can reach afterwards, it could reach before (or it is the updated node) *)
Lemma upd_reach_sub : forall g R l nd',
  (forall c, In c (n_children nd') -> acc g R c \/ c = l) ->
  forall r x, reach (upd g l nd') r x -> (In r R \/ r = l) -> x = l \/ acc g R x.
Proof.
  intros g R l nd' Hch r x H. induction H as [r | r x' nd0 c H IH Hx' Hc]; intros Hr.
  - destruct Hr as [Hr | ->]; [right; apply acc_root; assumption | left; reflexivity].
  - destruct (Pos.eq_dec x' l) as [-> | N].
    + rewrite upd_same in Hx'. injection Hx' as <-.
      destruct (Hch c Hc) as [A | ->]; [right; assumption | left; reflexivity].
    + rewrite upd_other in Hx' by assumption.
      destruct (IH Hr) as [-> | [r0 [Hin0 H0]]]; [contradiction | ].
      right. exists r0. split; [assumption | eapply reach_step; eauto].
Qed.

(* the other party: as long as it cannot reach the updated location, nothing changes for it *)
Lemma upd_val_frame : forall g Ro l nd',
  ~ acc g Ro l -> forall x, acc g Ro x -> upd g l nd' x = g x.
Proof.
  intros g Ro l nd' Hn x Hx. apply upd_other. intros ->. apply Hn. assumption.
Qed.

Lemma upd_acc_frame : forall g Ro l nd',
  ~ acc g Ro l -> forall x, acc (upd g l nd') Ro x <-> acc g Ro x.
Proof. intros g Ro l nd' Hn. apply acc_local. apply upd_val_frame. exact Hn. Qed.

(* ------------------------------------------------------------------ the invariant *)

Definition inv (g : heap) (R1 R2 : list loc) : Prop :=
  wf g /\
  (forall r, In r R1 \/ In r R2 -> g r <> None) /\
  (forall l, acc g R1 l -> acc g R2 l -> exists nd, g l = Some nd /\ n_mut nd = false).

Lemma inv_sym : forall g R1 R2, inv g R1 R2 -> inv g R2 R1.
Proof.
  intros g R1 R2 (Hwf & Hr & Hs). repeat split.
  - assumption.
  - intros r [H | H]; apply Hr; [right | left]; assumption.
  - intros l H2 H1. apply Hs; assumption.
Qed.

(* an update the other party cannot see keeps the invariant and leaves the other party's part of the heap untouched *)
Lemma upd_inv : forall g R Ro l nd' R',
  inv g R Ro ->
  ~ acc g Ro l ->
  (forall c, In c (n_children nd') -> acc g R c \/ c = l) ->
  (forall r, In r R' -> In r R \/ r = l) ->
  inv (upd g l nd') R' Ro /\
  (forall x, acc g Ro x -> upd g l nd' x = g x) /\ (forall x, acc (upd g l nd') Ro x <-> acc g Ro x).
Proof.
  intros g R Ro l nd' R' (Hwf & Hr & Hs) Hn Hch HR'.
  assert (HexR : forall x, acc g R x -> g x <> None).
  { apply acc_exists; [assumption | intros r H; apply Hr; left; assumption]. }
  split; [ | split; [apply upd_val_frame | apply upd_acc_frame]; exact Hn].
  repeat split.
  - intros x ndx c Hx Hc. destruct (Pos.eq_dec x l) as [-> | N].
    + rewrite upd_same in Hx. injection Hx as <-.
      destruct (Hch c Hc) as [A | ->]; [apply upd_pres, HexR, A | rewrite upd_same; discriminate].
    + rewrite upd_other in Hx by assumption. apply upd_pres. eapply Hwf; eauto.
  - intros r [H | H].
    + destruct (HR' r H) as [H' | ->]; [apply upd_pres, Hr; left; assumption | rewrite upd_same; discriminate].
    + apply upd_pres, Hr. right. assumption.
  - intros x [r [Hin H]] Ho.
    apply (upd_acc_frame g Ro l nd' Hn) in Ho.
    destruct (upd_reach_sub g R l nd' Hch r x H (HR' r Hin)) as [-> | A]; [contradiction | ].
    destruct (Hs x A Ho) as [nd0 [E M]]. exists nd0. split; [ | assumption].
    rewrite (upd_val_frame g Ro l nd' Hn x Ho). assumption.
Qed.

(* one action of the party holding R: the other party cannot reach what it touches
   (a written node is mutable, so not shared; an allocated one did not exist) *)
Lemma step_inv : forall g R Ro g' R',
  inv g R Ro -> step (g, R) (g', R') ->
  inv g' R' Ro /\ (forall x, acc g Ro x -> g' x = g x) /\ (forall x, acc g' Ro x <-> acc g Ro x).
Proof.
  intros g R Ro g' R' Hinv Hst. pose proof Hinv as (Hwf & Hr & Hs).
  inversion Hst as [g0 R0 l nd nd' Hacc Hl Hmut Hmut' Hk Hch | g0 R0 l nd' Hfresh Hch]; subst.
  - apply (upd_inv g R' Ro l nd'); [exact Hinv | | intros c Hc; left; apply Hch; exact Hc | auto].
    intros A. destruct (Hs l Hacc A) as [nd0 [E M]]. congruence.
  - apply (upd_inv g R Ro l nd'); [exact Hinv | | exact Hch | intros r [<- | Hin]; auto].
    intros A. apply (acc_exists g Ro Hwf) in A; [contradiction | ]. intros r Hin. apply Hr. right. assumption.
Qed.

Lemma steps_inv : forall s s', steps s s' ->
  forall Ro, inv (fst s) (snd s) Ro ->
  inv (fst s') (snd s') Ro /\ (forall x, acc (fst s) Ro x -> fst s' x = fst s x)
  /\ (forall x, acc (fst s') Ro x <-> acc (fst s) Ro x).
Proof.
  intros s s' H. induction H as [s | [g R] [g' R'] s'' Hst Hsts IH]; intros Ro Hinv.
  - split; [assumption | split; [reflexivity | reflexivity]].
  - cbn [fst snd] in *. destruct (step_inv g R Ro g' R' Hinv Hst) as (Hinv' & Hv & Ha).
    destruct (IH Ro Hinv') as (Hinv'' & Hv' & Ha'). cbn [fst snd] in *.
    split; [assumption | split].
    + intros x Hx. rewrite Hv' by (apply Ha; assumption). apply Hv. assumption.
    + intros x. rewrite Ha'. apply Ha.
Qed.

(* ------------------------------------------------------------------ observations *)

Lemma unfold_local : forall n, local_obs (unfold n).
Proof.
  induction n as [ | n IH]; intros g g' r H; cbn [unfold]; [reflexivity | ].
  rewrite (H r (reach_refl g r)).
  destruct (g r) as [nd | ] eqn:E; [ | reflexivity].
  f_equal. apply map_ext_in. intros c Hc. apply IH.
  intros l Hl. apply H. eapply reach_child; eauto.
Qed.

(* what the other party observes from its roots is untouched *)
Lemma step_frame_obs : forall g R Ro g' R',
  inv g R Ro -> step (g, R) (g', R') ->
  forall r, In r Ro -> forall T (obs : heap -> loc -> T), local_obs obs -> obs g' r = obs g r.
Proof.
  intros g R Ro g' R' Hinv Hst r Hr T obs Hloc.
  destruct (step_inv g R Ro g' R' Hinv Hst) as (_ & Hv & _).
  apply Hloc. intros l Hl. apply Hv. exists r. split; assumption.
Qed.

(* ------------------------------------------------------------------ two parties, any interleaving *)

Definition inv_state (s : state) : Prop :=
  match s with (g, R1, R2) => inv g R1 R2 end.

Lemma astep_inv : forall s s', inv_state s -> astep s s' -> inv_state s'.
Proof.
  intros s s' Hinv H. inversion H; subst; cbn [inv_state] in *.
  - apply (step_inv g R1 R2 g' R1' Hinv H0).
  - apply inv_sym. apply inv_sym in Hinv. apply (step_inv g R2 R1 g' R2' Hinv H0).
Qed.

Lemma asteps_inv : forall s s', asteps s s' -> inv_state s -> inv_state s'.
Proof.
  intros s s' H. induction H; intros Hinv; [assumption | ].
  apply IHasteps. eapply astep_inv; eauto.
Qed.

(* ------------------------------------------------------------------ the checker *)

Lemma lmem_find : forall l (s : lset), lmem l s = true -> PositiveMap.find l s = Some tt.
Proof.
  intros l s H. unfold lmem in H. rewrite PositiveMap.mem_find in H.
  destruct (PositiveMap.find l s) as [[] | ]; [reflexivity | discriminate].
Qed.

Lemma mem_some : forall (m : hmap) l, PositiveMap.mem l m = true -> sem m l <> None.
Proof.
  intros m l H. unfold sem. rewrite PositiveMap.mem_find in H.
  destruct (PositiveMap.find l m); [discriminate | discriminate].
Qed.

Lemma forallb_elements : forall {A} (f : positive * A -> bool) (m : PositiveMap.t A) l v,
  forallb f (PositiveMap.elements m) = true -> PositiveMap.find l m = Some v -> f (l, v) = true.
Proof.
  intros A f m l v H Hl. rewrite forallb_forall in H. apply H. apply PositiveMap.elements_correct. exact Hl.
Qed.

Lemma closedb_sound : forall m s r,
  closedb m s = true -> lmem r s = true ->
  forall l, reach (sem m) r l -> lmem l s = true.
Proof.
  intros m s r Hc Hr l H. induction H as [r | r x nd c H IH Hx Hin]; [assumption | ].
  specialize (IH Hr). apply lmem_find, (forallb_elements _ s x tt Hc) in IH. cbn [fst] in IH.
  unfold sem in Hx. rewrite Hx, forallb_forall in IH. apply IH. assumption.
Qed.

Lemma wfb_sound : forall m, wfb m = true -> wf (sem m).
Proof.
  intros m H l nd c Hl Hc. apply (forallb_elements _ m l nd H) in Hl. cbn [snd] in Hl.
  rewrite forallb_forall in Hl. apply mem_some. apply Hl. assumption.
Qed.

Lemma shared_immutable_sound : forall m s1 s2 l,
  shared_immutable m s1 s2 = true -> lmem l s1 = true -> lmem l s2 = true ->
  exists nd, sem m l = Some nd /\ n_mut nd = false.
Proof.
  intros m s1 s2 l H H1 H2. apply lmem_find, (forallb_elements _ s1 l tt H) in H1. cbn [fst] in H1. rewrite H2 in H1. unfold sem. destruct (PositiveMap.find l m) as [nd | ]; [ | discriminate].
  exists nd. split; [reflexivity | apply negb_true_iff; exact H1].
Qed.

Lemma acc_single : forall g r l, acc g [r] l <-> reach g r l.
Proof.
  intros g r l. split.
  - intros [r0 [[<- | []] H]]. assumption.
  - intros H. exists r. split; [left; reflexivity | assumption].
Qed.

Lemma checker_inv : forall m r1 r2,
  no_shared_mutable m r1 r2 = true -> inv (sem m) [r1] [r2].
Proof.
  intros m r1 r2 H. unfold no_shared_mutable in H. cbv zeta in H. rewrite !andb_true_iff in H.
  destruct H as [[[[[[[Hwf H1] H2] Hr1] Hr2] Hc1] Hc2] Hs].
  repeat split.
  - apply wfb_sound. assumption.
  - intros r [[<- | []] | [<- | []]]; apply mem_some; assumption.
  - intros l A1 A2. apply acc_single in A1. apply acc_single in A2.
    eapply shared_immutable_sound; [exact Hs | |]; eapply closedb_sound; eassumption.
Qed.

(* ------------------------------------------------------------------ main theorems *)

(* On any heap with the invariant, no sequence of writes/allocations by the holder of R changes the part of the heap
   reachable from a root of the other party, any unfolding from it, or any local observation from it. *)
Theorem inv_frame : forall g R Ro,
  inv g R Ro -> forall g' R', steps (g, R) (g', R') ->
  forall r, In r Ro ->
    (forall l, reach g r l -> g' l = g l) /\
    (forall n, unfold n g' r = unfold n g r) /\
    (forall T (obs : heap -> loc -> T), local_obs obs -> obs g' r = obs g r).
Proof.
  intros g R Ro Hinv g' R' Hs r Hr.
  destruct (steps_inv _ _ Hs Ro Hinv) as (_ & Hv & _). cbn [fst snd] in Hv.
  assert (F : forall l, reach g r l -> g' l = g l).
  { intros l Hl. apply Hv. exists r. split; assumption. }
  split; [exact F | split].
  - intros n. apply unfold_local. exact F.
  - intros T obs Hloc. apply Hloc. exact F.
Qed.

Theorem checker_sound : forall m r1 r2,
  no_shared_mutable m r1 r2 = true ->
  forall g' R', steps (sem m, [r1]) (g', R') ->
    (forall l, reach (sem m) r2 l -> g' l = sem m l) /\
    (forall n, unfold n g' r2 = unfold n (sem m) r2) /\
    (forall T (obs : heap -> loc -> T), local_obs obs -> obs g' r2 = obs (sem m) r2).
Proof.
  intros m r1 r2 H g' R' Hs.
  exact (inv_frame _ _ _ (checker_inv m r1 r2 H) _ _ Hs r2 (or_introl eq_refl)).
Qed.

(* Any interleaving of actions of both parties: after it, an action of either party leaves every local
   observation from every root (model root or local reference) of the other party unchanged. *)
Theorem inv_interleaved : forall g0 R10 R20,
  inv g0 R10 R20 -> forall g R1 R2, asteps (g0, R10, R20) (g, R1, R2) ->
    (forall g' R1', step (g, R1) (g', R1') ->
       forall r, In r R2 -> forall T (obs : heap -> loc -> T), local_obs obs -> obs g' r = obs g r) /\
    (forall g' R2', step (g, R2) (g', R2') ->
       forall r, In r R1 -> forall T (obs : heap -> loc -> T), local_obs obs -> obs g' r = obs g r).
Proof.
  intros g0 R10 R20 H0 g R1 R2 Hs. pose proof (asteps_inv _ _ Hs H0) as Hinv. cbn [inv_state] in Hinv.
  split; intros g' R' Hst; [exact (step_frame_obs _ _ _ _ _ Hinv Hst) | exact (step_frame_obs _ _ _ _ _ (inv_sym _ _ _ Hinv) Hst)].
Qed.

(* ------------------------------------------------------------------ projection: the other party might as well not exist *)

(* h is what party 2 would have built alone: it agrees with g on everything party 2 can reach, and has no extra objects *)
Definition sim (g h : heap) (R : list loc) : Prop :=
  (forall x, acc g R x -> h x = g x) /\ (forall x, g x = None -> h x = None).

Lemma sim_acc : forall g h R, sim g h R -> forall x, acc g R x -> acc h R x.
Proof. intros g h R [Hv _] x. apply acc_local. exact Hv. Qed.

(* the same update on both heaps *)
Lemma sim_upd : forall g h R l nd' R',
  sim g h R ->
  (forall c, In c (n_children nd') -> acc g R c \/ c = l) ->
  (forall r, In r R' -> In r R \/ r = l) ->
  sim (upd g l nd') (upd h l nd') R'.
Proof.
  intros g h R l nd' R' [Hv Hd] Hch HR'. split; intros x Hx;
    (destruct (Pos.eq_dec x l) as [-> | N]; [rewrite ?upd_same in *; congruence | rewrite ?upd_other in * by assumption]).
  - apply Hv. destruct Hx as [r [Hin H]].
    destruct (upd_reach_sub g R l nd' Hch r x H (HR' r Hin)) as [-> | A]; [contradiction | exact A].
  - apply Hd. exact Hx.
Qed.

(* a step of party 2 in the shared heap is a step of party 2 in its solo heap, and the two stay in agreement *)
Lemma sim_own_step : forall g h R g' R',
  sim g h R -> step (g, R) (g', R') -> exists h', step (h, R) (h', R') /\ sim g' h' R'.
Proof.
  intros g h R g' R' S Hst. pose proof S as [Hv Hd].
  inversion Hst as [g0 R0 l nd nd' Hacc Hl Hmut Hmut' Hk Hch | g0 R0 l nd' Hfresh Hch]; subst;
    exists (upd h l nd'); split.
  - eapply step_write; eauto using sim_acc. rewrite Hv by assumption. exact Hl.
  - apply (sim_upd g h R'); auto.
  - apply step_alloc; [auto | ]. intros c Hc. destruct (Hch c Hc) as [A | ->]; eauto using sim_acc.
  - apply (sim_upd g h R); [exact S | exact Hch | intros r [<- | Hin]; auto].
Qed.

Lemma step_pres : forall g R g' R' x, step (g, R) (g', R') -> g x <> None -> g' x <> None.
Proof. intros g R g' R' x H. inversion H; subst; apply upd_pres. Qed.

(* a step of the other party does not disturb the agreement *)
Lemma sim_other_step : forall g h R Ro g' Ro',
  inv g Ro R -> sim g h R -> step (g, Ro) (g', Ro') -> sim g' h R.
Proof.
  intros g h R Ro g' Ro' Hinv [Hv Hd] Hst.
  destruct (step_inv g Ro R g' Ro' Hinv Hst) as (_ & Hval & Hacc).
  split.
  - intros x Hx. apply Hacc in Hx. rewrite Hval by assumption. apply Hv. assumption.
  - intros x Hx. apply Hd. destruct (g x) eqn:E; [ | reflexivity].
    destruct (step_pres g Ro g' Ro' x Hst); [rewrite E; discriminate | exact Hx].
Qed.

Lemma steps_snoc : forall s s' s'', steps s s' -> step s' s'' -> steps s s''.
Proof.
  intros s s' s'' H. induction H; intros Hst.
  - eapply steps_cons; [exact Hst | apply steps_nil].
  - eapply steps_cons; [eassumption | apply IHsteps; assumption].
Qed.

Lemma steps_trans : forall s s' s'', steps s s' -> steps s' s'' -> steps s s''.
Proof.
  intros s s' s'' H. induction H; intros H2; [assumption | ].
  eapply steps_cons; [eassumption | apply IHsteps; assumption].
Qed.

Lemma asteps_project : forall s s', asteps s s' ->
  forall h, inv_state s -> sim (fst (fst s)) h (snd s) ->
  exists h', steps (h, snd s) (h', snd s') /\ sim (fst (fst s')) h' (snd s').
Proof.
  intros s s' H. induction H as [s | s s1 s2 Hst Hsts IH]; intros h Hinv S.
  - exists h. split; [apply steps_nil | assumption].
  - assert (Hinv1 := astep_inv _ _ Hinv Hst).
    inversion Hst as [g R1 R2 g' R1' H1 | g R1 R2 g' R2' H2]; subst; cbn [fst snd inv_state] in *.
    + destruct (IH h Hinv1 (sim_other_step g h R2 R1 g' R1' Hinv S H1)) as [h' [Hs' S']].
      exists h'. split; assumption.
    + destruct (sim_own_step g h R2 g' R2' S H2) as [h1 [Hs1 S1]].
      destruct (IH h1 Hinv1 S1) as [h' [Hs' S']].
      exists h'. split; [eapply steps_cons; eassumption | assumption].
Qed.

Lemma inv_projection_one_side : forall g0 R1 R2 g R1' R2',
  inv g0 R1 R2 -> asteps (g0, R1, R2) (g, R1', R2') ->
  exists h, steps (g0, R2) (h, R2') /\
            (forall x, acc g R2' x -> h x = g x) /\
            (forall r, In r R2' -> forall T (obs : heap -> loc -> T), local_obs obs -> obs h r = obs g r).
Proof.
  intros g0 R1 R2 g R1' R2' Hinv Hs.
  assert (S0 : sim g0 g0 R2) by (split; intros; [reflexivity | assumption]).
  destruct (asteps_project _ _ Hs g0 Hinv S0) as [h [Hsteps [Hv Hd]]].
  cbn [fst snd] in *. exists h. split; [assumption | split; [assumption | ]].
  intros r Hr T obs Hloc. apply Hloc. intros l Hl. apply Hv. exists r. split; assumption.
Qed.

Definition swap (s : state) : state := match s with (g, R1, R2) => (g, R2, R1) end.

Lemma asteps_swap : forall s s', asteps s s' -> asteps (swap s) (swap s').
Proof.
  intros s s' H. induction H as [s | s s1 s2 Hst Hsts IH]; [apply asteps_nil | ].
  eapply asteps_cons; [ | exact IH].
  inversion Hst; subst; cbn [swap]; [apply astep_2 | apply astep_1]; assumption.
Qed.

(* Whatever the holder of the other root does in between, each party ends up with exactly the heap (as far as it can
   see it) that it would have built running ALONE from the initial heap. *)
Theorem inv_projection : forall g0 R10 R20,
  inv g0 R10 R20 -> forall g R1 R2, asteps (g0, R10, R20) (g, R1, R2) ->
  (exists h, steps (g0, R20) (h, R2) /\
             (forall x, acc g R2 x -> h x = g x) /\
             (forall r, In r R2 -> forall T (obs : heap -> loc -> T), local_obs obs -> obs h r = obs g r)) /\
  (exists h, steps (g0, R10) (h, R1) /\
             (forall x, acc g R1 x -> h x = g x) /\
             (forall r, In r R1 -> forall T (obs : heap -> loc -> T), local_obs obs -> obs h r = obs g r)).
Proof.
  intros g0 R10 R20 H0 g R1 R2 Hs. split.
  - exact (inv_projection_one_side _ _ _ _ _ _ H0 Hs).
  - exact (inv_projection_one_side _ _ _ _ _ _ (inv_sym _ _ _ H0) (asteps_swap _ _ Hs)).
Qed.

(* both roots reach the mutable object 3 *)
Definition ex_shared : hmap :=
  of_list [(1%positive, mkNode 1 true [] [3%positive]);
           (2%positive, mkNode 1 true [] [3%positive]);
           (3%positive, mkNode 2 true [7%Z] [])].

(* non-vacuity: a copy that shares only an immutable object passes, and a write exists *)
Definition ex_copy : hmap :=
  of_list [(1%positive, mkNode 1 true [] [3%positive; 5%positive]);
           (2%positive, mkNode 1 true [] [4%positive; 5%positive]);
           (3%positive, mkNode 2 true [7%Z] []);
           (4%positive, mkNode 2 true [7%Z] []);
           (5%positive, mkNode 3 false [1%Z] [])].

Example ex_copy_passes : no_shared_mutable ex_copy 1%positive 2%positive = true.
Proof. vm_compute. reflexivity. Qed.

Example ex_copy_has_write :
  exists g' R', step (sem ex_copy, [1%positive]) (g', R') /\ g' 3%positive <> sem ex_copy 3%positive.
Proof.
  exists (upd (sem ex_copy) 3%positive (mkNode 2 true [8%Z] [5%positive])), [1%positive]. split.
  - apply (write_child (sem ex_copy) 1%positive (mkNode 1 true [] [3%positive; 5%positive]) 3%positive (mkNode 2 true [7%Z] []));
      try reflexivity; [left; reflexivity | ].
    intros c [<- | []]. right. left. reflexivity.
  - vm_compute. discriminate.
Qed.
