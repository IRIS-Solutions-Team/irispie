(* Proofs about the Dates model (model/Dates.v over gen/DatesGen.v, lib/Calendar.v).
   Everything that mentions a gen_* definition is re-checked against the
   current source of dates.py on every run.  Definitions first, lemmas below. *)
From Coq Require Import ZArith Bool String List Lia.
From Verif Require Import lib.Calendar lib.PyRange lib.Period gen.DatesGen model.Dates.
Import ListNotations.
Open Scope Z_scope.

Definition cmp_sem (c : cmpop) (d : Z) : bool :=
  match c with CEq => d =? 0 | CNe => negb (d =? 0) | CLt => d <? 0 | CLe => d <=? 0 | CGt => 0 <? d | CGe => 0 <=? d end.

Definition ple (p q : period) : Prop := pcmp CLe p (Some q) = Ok true.

Definition plt (p q : period) : Prop := pcmp CLt p (Some q) = Ok true.

(* first and last month of the seg-th period of a year *)
Definition seg_start_month (f seg : Z) : Z := (seg - 1) * (12 / f) + 1.

Definition seg_end_month (f seg : Z) : Z := seg * (12 / f).

Definition ord3 (t : Z * Z * Z) : Z := let '(y, m, d) := t in ord_of_ymd y m d.

Definition valid3 (t : Z * Z * Z) : Prop := let '(y, m, d) := t in valid_ymd y m d.

Definition in_calendar (n : Z) : Prop := 1 <= n <= max_ordinal.

(* number of periods of Span(start = a, end = e, step = c) *)
Definition span_count (a e c : Z) : Z :=
  if c >? 0 then Z.max 0 ((e - a) / c + 1) else if c <? 0 then Z.max 0 ((a - e) / (- c) + 1) else 0.

(* well-formed spans: what the constructor establishes and the in-place operations preserve *)
Definition span_wf (s : span) : Prop :=
  sp_needs s = ep_needs (sp_start s) || ep_needs (sp_end s) /\
  (sp_needs s = false -> exists p q, sp_start s = At p /\ sp_end s = At q /\ p_freq p = p_freq q).

(* summary of a history: has the span been flipped, and by how much have the ORIGINAL start and end moved *)
Record summary := mkSum { su_flip : bool; su_da : Z; su_db : Z }.

Definition sum_step (u : summary) (o : sop) : summary :=
  match o with
  | OReverse => mkSum (negb (su_flip u)) (su_da u) (su_db u)
  | OShift k => mkSum (su_flip u) (su_da u + k) (su_db u + k)
  | OShiftStart k => if su_flip u then mkSum true (su_da u) (su_db u + k) else mkSum false (su_da u + k) (su_db u)
  | OShiftEnd k => if su_flip u then mkSum true (su_da u + k) (su_db u) else mkSum false (su_da u) (su_db u + k)
  end.

Definition summarize (ops : list sop) : summary := fold_left sum_step ops (mkSum false 0 0).

(* the pure (functional) composition: shift the two original end points, then swap and negate if flipped *)
Definition closed_form (s : span) (u : summary) : span :=
  let a := ep_add (sp_start s) (su_da u) in
  let b := ep_add (sp_end s) (su_db u) in
  if su_flip u then mkSpan b a (- sp_step s) (sp_needs s) else mkSpan a b (sp_step s) (sp_needs s).

Definition shift_of (b : shift_spec) : shift_by :=
  match b with Period.ByInt k => ByInt k | Yoy => ByKw "yoy" | Soy => ByKw "soy" | Eopy => ByKw "eopy" | Tty => ByKw "tty" end.

(* the calendar periods of the supported range *)
Definition in_domain (p : period) : Prop :=
  (is_regular_freq (p_freq p) = true /\ 1 <= p_serial p / p_freq p <= MAXYEAR) \/
  (p_freq p = freq_DAILY /\ in_calendar (p_serial p)).

Definition cal_freq (g : Z) : Prop := is_regular_freq g = true \/ g = freq_DAILY.

Definition ymd_le (a b : Z * Z * Z) : Prop := a = b \/ ymd_lt a b.

(* the frequency an end point has once it is resolved against the context c *)
Definition ep_freq_in (c : context) (e : endpoint) : Z :=
  match e with
  | At p => p_freq p
  | Ctx true _ => p_freq (c_start c)
  | Ctx false _ => p_freq (c_end c)
  end.

(* every public way of deriving a span from a span: the in-place mutators, + - >> << reversed(), and resolve against an
   arbitrary context; an operation that raises leaves the span as it was *)
Inductive span_op :=
| PMut (o : sop) | PAdd (k : Z) | PSub (k : Z) | PRsh (k : Z) | PLsh (k : Z) | PReversed | PResolve (c : context).

Definition apply_op (s : span) (a : span_op) : dres span :=
  match a with
  | PMut o => Ok (sstep s o)
  | PAdd k => span_add s k
  | PSub k => span_sub s k
  | PRsh k => span_rshift s k
  | PLsh k => span_lshift s k
  | PReversed => Ok (span_reversed s)
  | PResolve c => span_resolve c s
  end.

Fixpoint run_public (s : span) (l : list span_op) : span :=
  match l with
  | [] => s
  | a :: r => match apply_op s a with Ok s' => run_public s' r | Err _ => run_public s r end
  end.

Lemma period_eta : forall p, mkP (p_freq p) (p_serial p) = p.
Proof. destruct p; reflexivity. Qed.

Lemma period_ext : forall p q, p_freq p = p_freq q -> p_serial p = p_serial q -> p = q.
Proof. destruct p, q; cbn; intros; subst; reflexivity. Qed.

(* the generated flag gen_check_periods_by_class is consumed here, the six gen_cmp_*_checked in pcmp_unfold:
   with one of them off these two proofs fail *)
Lemma check_some : forall p q, check_periods p (Some q) = true <-> p_freq p = p_freq q.
Proof. intros. apply Z.eqb_eq. Qed.

Lemma check_some_false : forall p q, p_freq p <> p_freq q -> check_periods p (Some q) = false.
Proof. intros. apply Z.eqb_neq. assumption. Qed.

(* every comparison is checked, and its body is the integer comparison of the serials *)
Lemma pcmp_unfold : forall c p o, pcmp c p o =
  if check_periods p o
  then unchecked o (fun q => match c with CEq => p_serial p =? p_serial q | CNe => negb (p_serial p =? p_serial q)
                                         | CLt => p_serial p <? p_serial q | CLe => p_serial p <=? p_serial q
                                         | CGt => p_serial q <? p_serial p | CGe => p_serial q <=? p_serial p end)
  else Err ErrFreq.
Proof.
  intros c p o. unfold pcmp.
  destruct c, (check_periods p o), o as [q |]; cbn; try reflexivity; f_equal; [apply Z.gtb_ltb | apply Z.geb_leb].
Qed.

Lemma padd_serial : forall p n, p_serial (padd p n) = p_serial p + n.
Proof. reflexivity. Qed.

Lemma padd_0 : forall p, padd p 0 = p.
Proof. intros. apply period_ext; cbn; unfold gen_period_add; lia. Qed.

Lemma padd_padd : forall p n m, padd (padd p n) m = padd p (n + m).
Proof. intros. apply period_ext; cbn; unfold gen_period_add; lia. Qed.

Lemma psub_int_padd : forall p n, psub_int p n = padd p (- n).
Proof. reflexivity. Qed.

Lemma psub_same : forall p q, p_freq p = p_freq q -> psub p q = Ok (p_serial p - p_serial q).
Proof. intros p q H. unfold psub. rewrite (proj2 (check_some p q) H). reflexivity. Qed.

Lemma psub_mixed : forall p q, p_freq p <> p_freq q -> psub p q = Err ErrFreq.
Proof. intros p q H. unfold psub. rewrite check_some_false by assumption. reflexivity. Qed.

(* p + (q - p) == q ; (p + n) - p == n ; (p + n) + m == p + (n + m) ; p - n == p + (-n) *)
Theorem add_sub_laws : forall p q n m,
  (p_freq p = p_freq q -> exists d, psub q p = Ok d /\ padd p d = q) /\
  psub (padd p n) p = Ok n /\
  padd (padd p n) m = padd p (n + m) /\
  padd p 0 = p /\
  psub_int p n = padd p (- n) /\
  psub_int (padd p n) n = p.
Proof.
  intros p q n m. refine (conj _ (conj _ (conj (padd_padd p n m) (conj (padd_0 p) (conj (psub_int_padd p n) _))))).
  - intros H. exists (p_serial q - p_serial p). split; [apply psub_same; congruence |].
    apply period_ext; cbn; unfold gen_period_add; [assumption | lia].
  - rewrite psub_same by reflexivity. f_equal. cbn. unfold gen_period_add. lia.
  - rewrite psub_int_padd, padd_padd, Z.add_opp_diag_r. apply padd_0.
Qed.

Lemma pcmp_same : forall c p q, p_freq p = p_freq q ->
  pcmp c p (Some q) = Ok (cmp_sem c (p_serial p - p_serial q)).
Proof.
  intros c p q H. rewrite pcmp_unfold, (proj2 (check_some p q) H). cbn [unchecked]. f_equal.
  apply eq_true_iff_eq.
  destruct c; cbn [cmp_sem]; rewrite ?negb_true_iff, ?Z.eqb_eq, ?Z.eqb_neq, ?Z.ltb_lt, ?Z.leb_le; lia.
Qed.

Lemma pcmp_mixed : forall c p q, p_freq p <> p_freq q -> pcmp c p (Some q) = Err ErrFreq.
Proof. intros. rewrite pcmp_unfold, check_some_false by assumption. reflexivity. Qed.

(* comparison, equality and subtraction agree: every comparison is the sign test of p - q *)
Theorem cmp_agrees_with_sub : forall p q, p_freq p = p_freq q ->
  exists d, psub p q = Ok d /\ (forall c, pcmp c p (Some q) = Ok (cmp_sem c d)) /\ (d = 0 <-> p = q).
Proof.
  intros p q H. exists (p_serial p - p_serial q). split; [apply psub_same; assumption |]. split.
  - intros c. apply pcmp_same. assumption.
  - split; intros E.
    + apply period_ext; [assumption | lia].
    + subst. lia.
Qed.

Lemma ple_iff : forall p q, p_freq p = p_freq q -> (ple p q <-> p_serial p <= p_serial q).
Proof.
  intros p q H. unfold ple. rewrite pcmp_same by assumption. cbn [cmp_sem].
  split; [intros [= E] | intros E; f_equal]; revert E; rewrite Z.leb_le; lia.
Qed.

Lemma plt_iff : forall p q, p_freq p = p_freq q -> (plt p q <-> p_serial p < p_serial q).
Proof.
  intros p q H. unfold plt. rewrite pcmp_same by assumption. cbn [cmp_sem].
  split; [intros [= E] | intros E; f_equal]; revert E; rewrite Z.ltb_lt; lia.
Qed.

(* within one frequency <= is a total order and < is its strict part *)
Theorem total_order : forall p q r, p_freq p = p_freq q -> p_freq q = p_freq r ->
  ple p p /\
  (ple p q -> ple q p -> p = q) /\
  (ple p q -> ple q r -> ple p r) /\
  (ple p q \/ ple q p) /\
  (plt p q <-> ple p q /\ p <> q) /\
  (plt p q \/ p = q \/ plt q p).
Proof.
  intros p q r H1 H2.
  rewrite !ple_iff, !plt_iff by congruence.
  assert (EQ : p = q <-> p_serial p = p_serial q).
  { split; [intros; subst; reflexivity | intros; apply period_ext; assumption]. }
  rewrite EQ. lia.
Qed.

Theorem eq_implies_same_hash_key : forall p q,
  pcmp CEq p (Some q) = Ok true -> hash_key p = hash_key q.
Proof.
  intros p q H. rewrite pcmp_unfold in H.
  destruct (check_periods p (Some q)) eqn:C; [| discriminate].
  apply check_some in C. injection H as H. apply Z.eqb_eq in H. unfold hash_key, gen_hash_key. congruence.
Qed.

(* the constructor assembled from the fragments regenerated from Span.__init__, in one piece: missing end points default to the contextual start / end in the direction of the step, needs_resolve is the
   disjunction, and a resolved span is accepted only when _check_periods passes *)
Lemma span_make_unfold : forall a b step, span_make a b step =
  let s := match a with Some e => e | None => Ctx (step >? 0) 0 end in
  let e := match b with Some e => e | None => Ctx (negb (step >? 0)) 0 end in
  let needs := ep_needs s || ep_needs e in
  if needs then Ok (mkSpan s e step true)
  else match s, e with
       | At p, At q => if check_periods p (Some q) then Ok (mkSpan s e step false) else Err ErrFreq
       | _, _ => Err ErrFreq
       end.
Proof.
  intros a b step. unfold span_make, gen_span_init_start, gen_span_init_end, gen_span_init_needs,
    gen_span_init_checks_when_resolved.
  destruct a as [[p | fa oa] |], b as [[q | fb ob] |], (step >? 0); reflexivity.
Qed.

Lemma span_make_at : forall p q c, span_make (Some (At p)) (Some (At q)) c =
  if check_periods p (Some q) then Ok (mkSpan (At p) (At q) c false) else Err ErrFreq.
Proof. intros. rewrite span_make_unfold. reflexivity. Qed.

Theorem none_rejected : forall p c, pcmp c p None = Err ErrFreq.
Proof. intros. rewrite pcmp_unfold. reflexivity. Qed.

Theorem mixed_frequency_rejected : forall p q step, p_freq p <> p_freq q ->
  psub p q = Err ErrFreq /\
  (forall c, pcmp c p (Some q) = Err ErrFreq) /\
  (forall c, pcmp c p None = Err ErrFreq) /\
  span_make (Some (At p)) (Some (At q)) step = Err ErrFreq /\
  periods_from_until p q step = Err ErrFreq /\
  (forall s t st2, sp_start s = At p -> sp_start t = At q -> sp_end s = At p -> sp_end t = At q ->
     sp_step t = st2 -> span_eq s t = Err ErrFreq).
Proof.
  intros p q step H. pose proof (check_some_false p q H) as K.
  refine (conj (psub_mixed p q H) (conj (fun c => pcmp_mixed c p q H) (conj (none_rejected p) (conj _ (conj _ _))))).
  - rewrite span_make_at, K. reflexivity.
  - unfold periods_from_until. rewrite K. reflexivity.
  - intros s t st2 A B C D _. unfold span_eq. rewrite A, B, C, D, pcmp_mixed by assumption. reflexivity.
Qed.

Lemma regular_cases : forall f, is_regular_freq f = true -> f = 1 \/ f = 2 \/ f = 4 \/ f = 12.
Proof.
  intros f H. unfold is_regular_freq, gen_class_freq_YEARLY, gen_class_freq_HALFYEARLY, gen_class_freq_QUARTERLY,
    gen_class_freq_MONTHLY, freq_YEARLY, freq_HALFYEARLY, freq_QUARTERLY, freq_MONTHLY in H.
  rewrite !orb_true_iff, !Z.eqb_eq in H. lia.
Qed.

Lemma regular_kind : forall f, is_regular_freq f = true -> kind_of f = KReg.
Proof. intros f H. unfold kind_of. rewrite H. reflexivity. Qed.

Lemma regular_pos : forall f, is_regular_freq f = true -> 0 < f.
Proof. intros f R. destruct (regular_cases f R) as [-> | [-> | [-> | ->]]]; lia. Qed.

(* the same four cases with the number of months of a period *)
Lemma regular_widths : forall f, is_regular_freq f = true ->
  (f = 1 /\ 12 / f = 12) \/ (f = 2 /\ 12 / f = 6) \/ (f = 4 /\ 12 / f = 3) \/ (f = 12 /\ 12 / f = 1).
Proof. intros f R. destruct (regular_cases f R) as [-> | [-> | [-> | ->]]]; auto 6. Qed.

Lemma daily_kind : kind_of freq_DAILY = KDaily.
Proof. reflexivity. Qed.

Lemma integer_kind : kind_of freq_INTEGER = KInt.
Proof. reflexivity. Qed.

(* The month/day tables of the four classes, entry by entry: once the year s / f and the segment index s mod f are
   variables, each of the 1 + 2 + 4 + 12 entries is a closed lookup. *)
Lemma reg_to_ymd_spec : forall f s, is_regular_freq f = true ->
  let y := s / f in
  let seg := s mod f + 1 in
  to_ymd PStart (mkP f s) = Ok (y, seg_start_month f seg, 1) /\
  to_ymd PEnd (mkP f s) = Ok (y, seg_end_month f seg, days_in_month y (seg_end_month f seg)) /\
  exists mm md, to_ymd PMiddle (mkP f s) = Ok (y, mm, md) /\
                seg_start_month f seg <= mm <= seg_end_month f seg /\ 1 <= md <= days_in_month y mm.
Proof.
  intros f s R. cbv zeta. unfold to_ymd. cbn [p_freq p_serial]. rewrite (regular_kind f R).
  unfold gen_reg_to_ymd, gen_reg_to_year_segment.
  assert (K : 0 <= s mod f < f) by apply Z.mod_pos_bound, regular_pos, R.
  generalize dependent (s mod f). generalize (s / f). intros y k K.
  assert (C : (f = 1 /\ k = 0) \/ (f = 2 /\ (k = 0 \/ k = 1)) \/ (f = 4 /\ (k = 0 \/ k = 1 \/ k = 2 \/ k = 3)) \/
              (f = 12 /\ (k = 0 \/ k = 1 \/ k = 2 \/ k = 3 \/ k = 4 \/ k = 5 \/ k = 6 \/ k = 7 \/ k = 8 \/ k = 9
                          \/ k = 10 \/ k = 11)))
    by (destruct (regular_cases f R) as [-> | [-> | [-> | ->]]]; lia).
  clear K R.
  repeat destruct C as [C | C]; destruct C as [-> C]; repeat destruct C as [C | C]; subst k;
    (split; [reflexivity | split; [reflexivity | do 2 eexists; split; [reflexivity |]]]);
    cbn; destruct (is_leap y); lia.
Qed.

Lemma ord_le_lex : forall y m1 d1 m2 d2, valid_ymd y m1 d1 -> valid_ymd y m2 d2 ->
  m1 < m2 \/ (m1 = m2 /\ d1 <= d2) -> ord_of_ymd y m1 d1 <= ord_of_ymd y m2 d2.
Proof.
  intros y m1 d1 m2 d2 V1 V2 H.
  destruct (Z.eq_dec m1 m2) as [-> |].
  - unfold ord_of_ymd. lia.
  - apply Z.lt_le_incl. apply ord_of_ymd_lt; try assumption. cbn. lia.
Qed.

Lemma seg_months_range : forall f seg, is_regular_freq f = true -> 1 <= seg <= f ->
  1 <= seg_start_month f seg <= seg_end_month f seg /\ seg_end_month f seg <= 12 /\
  (seg < f -> seg_end_month f seg + 1 = seg_start_month f (seg + 1)) /\
  (seg = f -> seg_end_month f seg = 12) /\ seg_start_month f 1 = 1.
Proof.
  intros f seg R H. unfold seg_start_month, seg_end_month.
  destruct (regular_widths f R) as [[-> W] | [[-> W] | [[-> W] | [-> W]]]]; rewrite W; lia.
Qed.

(* the dates of the seg-th period of year y: it starts on the first day of its first month, ends on the last day of
   its last month, and every day of its months lies between the two *)
Lemma seg_dates : forall f y seg m d, is_regular_freq f = true -> 1 <= y -> 1 <= seg <= f ->
  seg_start_month f seg <= m <= seg_end_month f seg -> 1 <= d <= days_in_month y m ->
  let a := seg_start_month f seg in
  let c := seg_end_month f seg in
  valid_ymd y a 1 /\ valid_ymd y m d /\ valid_ymd y c (days_in_month y c) /\
  ord_of_ymd y a 1 <= ord_of_ymd y m d <= ord_of_ymd y c (days_in_month y c).
Proof.
  intros f y seg m d R Y S M D a c. destruct (seg_months_range f seg R S) as (M1 & M2 & _). fold a c in M, M1, M2.
  pose proof (dim_range y a). pose proof (dim_range y c). clearbody a c.
  assert (Va : valid_ymd y a 1) by (unfold valid_ymd; lia).
  assert (Vb : valid_ymd y m d) by (unfold valid_ymd; lia).
  assert (Vc : valid_ymd y c (days_in_month y c)) by (unfold valid_ymd; lia).
  refine (conj Va (conj Vb (conj Vc (conj _ _)))); apply ord_le_lex; try assumption; [lia |].
  destruct (Z.eq_dec m c) as [-> | N]; lia.
Qed.

Lemma year_seg_of_serial : forall f y seg, 0 < f -> 1 <= seg <= f ->
  (y * f + seg - 1) / f = y /\ (y * f + seg - 1) mod f + 1 = seg.
Proof.
  intros f y seg F S. replace (y * f + seg - 1) with ((seg - 1) + y * f) by lia.
  rewrite Z.div_add, Z.mod_add by lia. rewrite Z.div_small, Z.mod_small by lia. lia.
Qed.

Lemma seg_bounds : forall f s, 0 < f -> 1 <= s mod f + 1 <= f.
Proof. intros f s F. pose proof (Z.mod_pos_bound s f F). lia. Qed.

Lemma serial_succ : forall f s, 0 < f ->
  (s mod f + 1 < f /\ (s + 1) / f = s / f /\ (s + 1) mod f = s mod f + 1) \/
  (s mod f + 1 = f /\ (s + 1) / f = s / f + 1 /\ (s + 1) mod f = 0).
Proof.
  intros f s F. pose proof (Z.div_mod s f ltac:(lia)) as E. pose proof (Z.mod_pos_bound s f F) as B.
  destruct (Z.eq_dec (s mod f + 1) f) as [L | L]; [right | left]; (split; [lia |]).
  - destruct (year_seg_of_serial f (s / f + 1) 1 F ltac:(lia)) as (A1 & A2).
    replace (s + 1) with ((s / f + 1) * f + 1 - 1) by lia. lia.
  - destruct (year_seg_of_serial f (s / f) (s mod f + 2) F ltac:(lia)) as (A1 & A2).
    assert (s + 1 = s / f * f + (s mod f + 2) - 1) as -> by lia. lia.
Qed.

(* the day after the last day of a period is the first day of the next one: a month boundary inside the year, the
   year boundary after the last segment (no condition on the year) *)
Lemma next_period_start : forall f s, is_regular_freq f = true ->
  let c := seg_end_month f (s mod f + 1) in
  let a' := seg_start_month f ((s + 1) mod f + 1) in
  1 <= a' <= 12 /\ s / f <= (s + 1) / f /\
  ord_of_ymd (s / f) c (days_in_month (s / f) c) + 1 = ord_of_ymd ((s + 1) / f) a' 1.
Proof.
  intros f s R c a'. subst c a'. pose proof (regular_pos f R) as F. pose proof (seg_bounds f s F) as S.
  destruct (seg_months_range f (s mod f + 1) R S) as (M0 & _ & M3 & M4 & M5).
  destruct (serial_succ f s F) as [(N & -> & ->) | (N & -> & ->)].
  - destruct (seg_months_range f (s mod f + 1 + 1) R ltac:(lia)) as (M1 & M2 & _).
    rewrite <- (M3 N) in *. repeat split; try lia. apply month_boundary. lia.
  - change (0 + 1) with 1. rewrite M5, (M4 N). repeat split; try lia. apply year_boundary.
Qed.

(* consecutive periods tile the calendar: start <= middle <= end are valid dates of the period's year, and the day
   after the end of p is the start of p + 1 *)
Theorem tiling : forall f s, is_regular_freq f = true -> 1 <= s / f ->
  let p := mkP f s in
  exists a b c a',
    to_ymd PStart p = Ok a /\ to_ymd PMiddle p = Ok b /\ to_ymd PEnd p = Ok c /\
    to_ymd PStart (padd p 1) = Ok a' /\
    valid3 a /\ valid3 b /\ valid3 c /\ valid3 a' /\
    ord3 a <= ord3 b <= ord3 c /\ ord3 c + 1 = ord3 a'.
Proof.
  intros f s R Y p. subst p.
  destruct (reg_to_ymd_spec f s R) as (A & C & mm & md & B & Bm & Bd).
  destruct (reg_to_ymd_spec f (s + 1) R) as (A' & _).
  destruct (seg_dates f (s / f) (s mod f + 1) mm md R Y (seg_bounds f s (regular_pos f R)) Bm Bd) as (Va & Vb & Vc & O).
  destruct (next_period_start f s R) as (Ma' & Y' & N).
  assert (Va' : valid_ymd ((s + 1) / f) (seg_start_month f ((s + 1) mod f + 1)) 1).
  { unfold valid_ymd. pose proof (dim_range ((s + 1) / f) (seg_start_month f ((s + 1) mod f + 1))). lia. }
  do 4 eexists. exact (conj A (conj B (conj C (conj A' (conj Va (conj Vb (conj Vc (conj Va' (conj O N))))))))).
Qed.

(* year / segment accessors agree with the calendar: the period with accessors (y, seg) is the seg-th period of
   calendar year y; segment 1 starts on 1 January, segment f ends on 31 December *)
Theorem accessors_vs_calendar_regular : forall f s, is_regular_freq f = true ->
  let p := mkP f s in
  let y := s / f in
  let seg := s mod f + 1 in
  to_year_segment p = Ok (y, seg) /\ p_year p = Ok y /\ p_segment p = Ok seg /\
  1 <= seg <= f /\
  from_year_segment f y seg = Ok p /\
  p = padd (mkP f (gen_reg_from_year_segment f y 1)) (seg - 1) /\
  to_ymd PStart p = Ok (y, seg_start_month f seg, 1) /\
  to_ymd PEnd p = Ok (y, seg_end_month f seg, days_in_month y (seg_end_month f seg)) /\
  (seg = 1 -> to_ymd PStart p = Ok (y, 1, 1)) /\
  (seg = f -> to_ymd PEnd p = Ok (y, 12, 31)).
Proof.
  intros f s R p y seg. subst p y seg.
  pose proof (regular_pos f R) as F. pose proof (seg_bounds f s F) as S. pose proof (Z.div_mod s f ltac:(lia)) as E.
  destruct (reg_to_ymd_spec f s R) as (A & C & _).
  unfold to_year_segment, p_year, p_segment, from_year_segment. cbn [p_freq p_serial].
  rewrite (regular_kind f R).
  refine (conj _ (conj _ (conj _ (conj S (conj _ (conj _ (conj A (conj C (conj _ _))))))))); try reflexivity.
  - f_equal. f_equal. unfold gen_reg_from_year_segment. lia.
  - apply period_ext; cbn; [reflexivity |]. unfold gen_period_add, gen_reg_from_year_segment. lia.
  - intros E1. rewrite A, E1. reflexivity.
  - intros E1. rewrite C, E1.
    destruct (seg_months_range f f R ltac:(lia)) as (_ & _ & _ & M4 & _). rewrite (M4 eq_refl). reflexivity.
Qed.

Lemma ord_ok_true : forall n, in_calendar n -> ord_ok n = true.
Proof. intros n [A B]. unfold ord_ok. apply andb_true_iff. split; apply Z.leb_le; assumption. Qed.

Lemma date_ok_spec : forall y m d, date_ok y m d = true <-> valid_ymd y m d /\ y <= MAXYEAR.
Proof. intros. unfold date_ok. rewrite andb_true_iff, valid_ymdb_spec, Z.leb_le. tauto. Qed.

Lemma date_ok_jan1 : forall n, in_calendar n -> date_ok (year_of_ord n) 1 1 = true.
Proof.
  intros n H. apply date_ok_spec. destruct (year_in_range n H) as [Y1 Y2]. split; [apply valid_jan1 |]; assumption.
Qed.

Lemma ymd_of_ord_eta : forall n, (year_of_ord n, month_of_ord n, day_of_ord n) = ymd_of_ord n.
Proof. intros. unfold month_of_ord, day_of_ord, ymd_of_ord. reflexivity. Qed.

Lemma to_ymd_daily : forall n pos, in_calendar n -> to_ymd pos (mkP freq_DAILY n) = Ok (ymd_of_ord n).
Proof.
  intros n pos H. unfold to_ymd. cbn [p_freq p_serial]. rewrite daily_kind. unfold gen_daily_to_ymd.
  rewrite (ord_ok_true n H). reflexivity.
Qed.

(* a daily period is the calendar day with its ordinal: every position is the day itself, the year is the
   calendar year, the segment is the day of the year *)
Theorem accessors_vs_calendar_daily : forall n, in_calendar n ->
  let p := mkP freq_DAILY n in
  (forall pos, to_ymd pos p = Ok (ymd_of_ord n)) /\
  (forall pos, to_ordinal pos p = Ok n) /\
  to_year_segment p = Ok (year_of_ord n, doy_of_ord n) /\
  p_year p = Ok (year_of_ord n) /\ p_segment p = Ok (doy_of_ord n) /\
  1 <= doy_of_ord n <= year_len (year_of_ord n) /\
  from_year_segment freq_DAILY (year_of_ord n) (doy_of_ord n) = Ok p /\
  (let '(y, m, d) := ymd_of_ord n in from_ymd freq_DAILY y m d = Ok p).
Proof.
  intros n H p. subst p.
  pose proof (ord_ok_true n H) as O. pose proof (date_ok_jan1 n H) as J.
  pose proof (fun pos => to_ymd_daily n pos H) as TY.
  assert (DOY : n - ord_of_ymd (year_of_ord n) 1 1 + 1 = doy_of_ord n).
  { unfold doy_of_ord. rewrite ord_jan1. lia. }
  pose proof (ord_of_ymd_of_ord n) as V. pose proof (ymd_of_ord_valid n ltac:(destruct H; lia)) as W.
  destruct (ymd_of_ord n) as [[y m] d] eqn:E. destruct V as (V1 & V2 & V3 & V4).
  assert (D : date_ok y m d = true).
  { apply date_ok_spec. split; [assumption |]. subst y. apply (year_in_range n H). }
  refine (conj TY (conj _ (conj _ (conj _ (conj _ (conj (doy_range n) (conj _ _))))))).
  - intros pos. unfold to_ordinal. rewrite TY. cbn [bind]. rewrite D, V1. reflexivity.
  - unfold to_year_segment. cbn [p_freq p_serial]. rewrite daily_kind.
    unfold gen_daily_to_year_segment. rewrite O, J, DOY. reflexivity.
  - unfold p_year. cbn [p_freq p_serial]. rewrite daily_kind. unfold gen_daily_year. rewrite O. reflexivity.
  - unfold p_segment. cbn [p_freq p_serial]. rewrite daily_kind. unfold gen_daily_segment. rewrite O, J, DOY. reflexivity.
  - unfold from_year_segment. rewrite daily_kind. unfold gen_daily_from_year_segment. rewrite J. cbn [of_opt dmap].
    f_equal. f_equal. lia.
  - unfold from_ymd. rewrite daily_kind. unfold gen_daily_from_ymd. rewrite D, V1. reflexivity.
Qed.

(* the generated DailyPeriod.create_soy / create_eopy / create_tty inside the calendar: 1 January of the year, 31 December
   of the year before (datetime.date raises in year 1), the day before unless it is 1 January *)
Lemma daily_create_spec : forall n, in_calendar n ->
  let y := year_of_ord n in
  gen_daily_create_soy n = Some (ord_of_ymd y 1 1) /\
  (2 <= y -> gen_daily_create_eopy n = Some (ord_of_ymd (y - 1) 12 31)) /\
  (y = 1 -> gen_daily_create_eopy n = None) /\
  gen_daily_create_tty n = Some (if doy_of_ord n >? 1 then Some (n + -1) else None).
Proof.
  intros n H y. pose proof (ord_ok_true n H) as O. pose proof (date_ok_jan1 n H) as J. fold y in J.
  unfold gen_daily_create_soy, gen_daily_create_eopy, gen_daily_create_tty. fold y. rewrite O, J. cbn [andb].
  refine (conj eq_refl (conj _ (conj _ _))).
  - intros Y2. assert (date_ok (y - 1) 12 31 = true) as ->; [| reflexivity].
    apply date_ok_spec. destruct (year_in_range n H) as [_ Y]. fold y in Y. unfold MAXYEAR in *.
    split; [apply valid_dec31 |]; lia.
  - intros ->. reflexivity.
  - rewrite ord_jan1. replace (n - (days_before_year y + 1) + 1) with (doy_of_ord n) by (unfold doy_of_ord; fold y; lia).
    reflexivity.
Qed.

Lemma div_bounds : forall x c, 0 < c -> c * (x / c) <= x < c * (x / c) + c.
Proof. intros x c H. pose proof (Z.div_mod x c ltac:(lia)). pose proof (Z.mod_pos_bound x c H). lia. Qed.

Lemma range_len_span : forall a e c, py_range_len a (e + gen_sign c) c = span_count a e c.
Proof.
  intros a e c. unfold py_range_len, span_count, gen_sign.
  destruct (Z.gtb_spec c 0).
  - replace (e + 1 - a + c - 1) with ((e - a) + 1 * c) by lia. rewrite Z.div_add by lia. reflexivity.
  - destruct (Z.ltb_spec c 0); [| reflexivity].
    destruct (Z.eqb_spec c 0); [lia |].
    replace (a - (e + -1) - c - 1) with ((a - e) + 1 * (- c)) by lia. rewrite Z.div_add by lia. reflexivity.
Qed.

Lemma span_count_nonneg : forall a e c, 0 <= span_count a e c.
Proof. intros. unfold span_count. destruct (c >? 0); [lia |]. destruct (c <? 0); lia. Qed.

(* the enumeration start, start+step, ... stays between start and end (in the direction of step) and stops at the
   last such period *)
Lemma span_count_spec : forall a e c, c <> 0 ->
  let n := span_count a e c in
  (forall i, 0 <= i < n -> (0 < c -> a <= a + i * c <= e) /\ (c < 0 -> e <= a + i * c <= a)) /\
  (0 < c -> e < a + n * c) /\ (c < 0 -> a + n * c < e) /\
  (n = 0 <-> (0 < c /\ e < a) \/ (c < 0 /\ a < e)).
Proof.
  intros a e c C n. subst n. unfold span_count.
  destruct (Z.gtb_spec c 0).
  - pose proof (div_bounds (e - a) c H) as B.
    repeat split; intros; try lia; try nia.
  - destruct (Z.ltb_spec c 0); [| lia].
    pose proof (div_bounds (a - e) (- c) ltac:(lia)) as B.
    repeat split; intros; try lia; try nia.
Qed.

(* walking back from the end with the opposite step takes as many steps *)
Lemma span_count_rev : forall a e c, span_count e a (- c) = span_count a e c.
Proof.
  (* on a constructor of Z the sign tests and - - c compute, and the two branches change places *)
  intros a e c. destruct c; reflexivity.
Qed.

(* when the step divides the distance the last period listed is the end *)
Lemma span_count_exact : forall a e c, c <> 0 -> (e - a) mod c = 0 -> 1 <= span_count a e c ->
  (span_count a e c - 1) * c = e - a.
Proof.
  intros a e c C D N.
  assert (Q : span_count a e c - 1 = (e - a) / c).
  { unfold span_count in *. destruct (Z.gtb_spec c 0); [lia |]. destruct (Z.ltb_spec c 0); [| lia].
    replace (a - e) with (- (e - a)) in * by lia. rewrite Z.div_opp_opp in * by lia. lia. }
  rewrite Q. pose proof (Z_div_exact_full_2 (e - a) c C D). lia.
Qed.

(* range.__getitem__: negative indices count from the end, anything else out of 0 .. len - 1 is an IndexError *)
Lemma range_nth_spec : forall a b c i, c <> 0 ->
  let n := py_range_len a b c in
  (0 <= i < n -> range_nth (a, b, c) i = Ok (a + i * c)) /\
  (- n <= i < 0 -> range_nth (a, b, c) i = Ok (a + (i + n) * c)) /\
  (n <= i \/ i < - n -> range_nth (a, b, c) i = Err ErrIndex).
Proof.
  intros a b c i C n. unfold range_nth. fold n. destruct (Z.eqb_spec c 0); [contradiction |].
  destruct (Z.ltb_spec i 0); (split; [| split]); intros I; try lia.
  all: match goal with |- context [?j <? 0] => destruct (Z.ltb_spec j 0), (Z.leb_spec n j) end;
    try reflexivity; cbn [orb]; lia.
Qed.

Lemma span_make_wf : forall a b c s, span_make a b c = Ok s -> span_wf s.
Proof.
  intros a b c s H. rewrite span_make_unfold in H. cbv zeta in H.
  set (x := match a with Some e => e | None => Ctx (c >? 0) 0 end) in *.
  set (y := match b with Some e => e | None => Ctx (negb (c >? 0)) 0 end) in *.
  destruct (ep_needs x || ep_needs y) eqn:N.
  - injection H as <-. split; cbn; [symmetry; assumption | discriminate].
  - destruct x as [p |]; [| discriminate]. destruct y as [q |]; [| discriminate].
    destruct (check_periods p (Some q)) eqn:K; [| discriminate]. injection H as <-.
    split; cbn; [reflexivity |]. intros _. exists p, q. repeat split. apply check_some. assumption.
Qed.

(* the four in-place mutators, from the generated Span.reverse / shift / shift_start / shift_end *)
Lemma sstep_unfold : forall s o, sstep s o =
  match o with
  | OReverse => mkSpan (sp_end s) (sp_start s) (- sp_step s) (sp_needs s)
  | OShift k => mkSpan (ep_add (sp_start s) k) (ep_add (sp_end s) k) (sp_step s) (sp_needs s)
  | OShiftStart k => mkSpan (ep_add (sp_start s) k) (sp_end s) (sp_step s) (sp_needs s)
  | OShiftEnd k => mkSpan (sp_start s) (ep_add (sp_end s) k) (sp_step s) (sp_needs s)
  end.
Proof. destruct o; reflexivity. Qed.

Lemma ep_add_needs : forall e k, ep_needs (ep_add e k) = ep_needs e.
Proof. destruct e; reflexivity. Qed.

Lemma sstep_wf : forall s o, span_wf s -> span_wf (sstep s o).
Proof.
  intros s o [W1 W2]. rewrite sstep_unfold. destruct o; (split; cbn [sp_needs sp_start sp_end]; [rewrite ?ep_add_needs, W1; auto using orb_comm |]);
    intros N; destruct (W2 N) as (p & q & -> & -> & F); cbn [ep_add].
  - exists q, p. auto.
  - exists (padd p k), (padd q k). auto.
  - exists (padd p k), q. auto.
  - exists p, (padd q k). auto.
Qed.

Lemma run_ops_wf : forall ops s, span_wf s -> span_wf (run_ops s ops).
Proof. induction ops; intros; cbn; [assumption |]. apply IHops. apply sstep_wf. assumption. Qed.

(* the one form of a resolved span *)
Lemma resolved_eta : forall s p q c, sp_needs s = false -> sp_start s = At p -> sp_end s = At q -> sp_step s = c ->
  s = mkSpan (At p) (At q) c false.
Proof. intros [x y z w] p q c. cbn. congruence. Qed.

Lemma resolved_len : forall p q c, c <> 0 ->
  span_len (mkSpan (At p) (At q) c false) = Ok (span_count (p_serial p) (p_serial q) c).
Proof.
  intros p q c C. unfold span_len, span_range, gen_span_serials. cbn [sp_needs sp_start sp_end sp_step bind range_len].
  rewrite (proj2 (Z.eqb_neq c 0) C), range_len_span. reflexivity.
Qed.

Lemma resolved_iter : forall p q c, c <> 0 ->
  span_iter (mkSpan (At p) (At q) c false) =
  Ok (map (fun i => padd p (Z.of_nat i * c)) (seq 0 (Z.to_nat (span_count (p_serial p) (p_serial q) c)))).
Proof.
  intros p q c C. unfold span_iter, span_serials, span_range, span_freq, gen_span_serials.
  cbn [sp_needs sp_start sp_end sp_step bind range_list]. rewrite (proj2 (Z.eqb_neq c 0) C). cbn [dmap]. f_equal.
  unfold py_range. rewrite range_len_span, map_map. reflexivity.
Qed.

Lemma resolved_nth : forall p q c i, c <> 0 ->
  let s := mkSpan (At p) (At q) c false in
  let n := span_count (p_serial p) (p_serial q) c in
  (0 <= i < n -> span_nth s i = Ok (padd p (i * c))) /\
  (- n <= i < 0 -> span_nth s i = Ok (padd p ((i + n) * c))) /\
  (n <= i \/ i < - n -> span_nth s i = Err ErrIndex).
Proof.
  intros p q c i C s n. subst s. unfold span_nth, span_range, span_freq, gen_span_serials. cbn [sp_needs sp_start sp_end sp_step bind].
  destruct (range_nth_spec (p_serial p) (p_serial q + gen_sign c) c i C) as (P1 & P2 & P3).
  rewrite range_len_span in P1, P2, P3. fold n in P1, P2, P3.
  repeat split; intros I; [rewrite P1 | rewrite P2 | rewrite P3]; auto.
Qed.

Section ResolvedSpan.
Variables (s : span) (p q : period) (c : Z).
Hypothesis Hn : sp_needs s = false.
Hypothesis Hs : sp_start s = At p.
Hypothesis He : sp_end s = At q.
Hypothesis Hc : sp_step s = c.
Hypothesis Hnz : c <> 0.

Let n := span_count (p_serial p) (p_serial q) c.

Lemma resolved_nth_iter : forall i l, span_iter s = Ok l -> 0 <= i < n ->
  span_nth s i = Ok (nth (Z.to_nat i) l p) /\ (Z.to_nat i < length l)%nat.
Proof.
  intros i l L I. unfold n in I. rewrite (resolved_eta s p q c Hn Hs He Hc) in *. rewrite resolved_iter in L by exact Hnz. injection L as <-.
  rewrite (proj1 (resolved_nth p q c i Hnz) I), map_length, seq_length. split; [| lia].
  rewrite (nth_indep _ p (padd p (Z.of_nat 0 * c))) by (rewrite map_length, seq_length; lia).
  rewrite (map_nth (fun i => padd p (Z.of_nat i * c))). rewrite seq_nth by lia.
  cbn [plus]. rewrite Z2Nat.id by lia. reflexivity.
Qed.

Lemma resolved_len_iter : forall l, span_iter s = Ok l -> span_len s = Ok (Z.of_nat (length l)).
Proof.
  intros l L. rewrite (resolved_eta s p q c Hn Hs He Hc) in *. rewrite resolved_iter in L by exact Hnz. injection L as <-.
  rewrite resolved_len, map_length, seq_length by exact Hnz.
  rewrite Z2Nat.id by apply span_count_nonneg. reflexivity.
Qed.

End ResolvedSpan.

(* A resolved span enumerates exactly start, start+step, ... up to end, in the direction of step; its length, its
   iteration and its indexing (also with negative indices) agree with one another *)
Theorem span_enumerates : forall s p q c,
  sp_needs s = false -> sp_start s = At p -> sp_end s = At q -> sp_step s = c -> c <> 0 ->
  let a := p_serial p in
  let e := p_serial q in
  let n := span_count a e c in
  span_len s = Ok n /\
  span_iter s = Ok (map (fun i => padd p (Z.of_nat i * c)) (seq 0 (Z.to_nat n))) /\
  (forall i, 0 <= i < n -> span_nth s i = Ok (padd p (i * c)) /\ span_nth s (i - n) = Ok (padd p (i * c))) /\
  (forall i, n <= i \/ i < - n -> span_nth s i = Err ErrIndex) /\
  (forall i, 0 <= i < n -> (0 < c -> a <= a + i * c <= e) /\ (c < 0 -> e <= a + i * c <= a)) /\
  (0 < c -> e < a + n * c) /\ (c < 0 -> a + n * c < e) /\
  (n = 0 <-> (0 < c /\ e < a) \/ (c < 0 /\ a < e)).
Proof.
  intros s p q c Hn Hs He Hc Hnz a e n. rewrite (resolved_eta s p q c Hn Hs He Hc).
  pose proof (fun i => resolved_nth p q c i Hnz) as NTH. cbv zeta in NTH. fold a e n in NTH.
  refine (conj (resolved_len p q c Hnz) (conj (resolved_iter p q c Hnz)
            (conj _ (conj (fun i => proj2 (proj2 (NTH i))) (span_count_spec a e c Hnz))))).
  intros i I. split; [apply NTH, I |].
  rewrite (proj1 (proj2 (NTH (i - n)))) by lia. do 2 f_equal. lia.
Qed.

(* the full slice s[:] is the whole listing *)
Lemma select_idx_all : forall (T : Type) (l : list T) k idx,
  (forall j, k <= j < k + Z.of_nat (length l) -> existsb (Z.eqb j) idx = true) -> select_idx l k idx = l.
Proof.
  induction l as [| x l IH]; intros k idx H; cbn [select_idx]; [reflexivity |].
  rewrite H by (cbn [length]; lia). f_equal. apply IH. intros j J. apply H. cbn [length]. lia.
Qed.

Lemma in_py_range_unit : forall n j, 0 <= j < n -> existsb (Z.eqb j) (py_range 0 n 1) = true.
Proof.
  intros n j J. apply existsb_exists. exists j. split; [| apply Z.eqb_refl].
  unfold py_range, py_range_len. cbn [Z.gtb Z.compare].
  replace ((n - 0 + 1 - 1) / 1) with n by (rewrite Z.div_1_r; lia).
  apply in_map_iff. exists (Z.to_nat j). split; [lia |]. apply in_seq. lia.
Qed.

(* shifting a span shifts every period of its listing and keeps the length; the functional form + agrees with the
   in-place form *)
Theorem span_shift : forall s p q c k,
  sp_needs s = false -> sp_start s = At p -> sp_end s = At q -> sp_step s = c -> c <> 0 ->
  let s' := sstep s (OShift k) in
  span_len s' = span_len s /\
  (forall l, span_iter s = Ok l -> span_iter s' = Ok (map (fun x => padd x k) l)) /\
  (p_freq p = p_freq q -> span_add s k = Ok s').
Proof.
  intros s p q c k Hn Hs He Hc Hnz s'. subst s'. rewrite (resolved_eta s p q c Hn Hs He Hc).
  change (sstep (mkSpan (At p) (At q) c false) (OShift k)) with (mkSpan (At (padd p k)) (At (padd q k)) c false).
  assert (CNT : span_count (p_serial (padd p k)) (p_serial (padd q k)) c = span_count (p_serial p) (p_serial q) c).
  { cbn [padd p_serial]. unfold gen_period_add, span_count.
    replace (p_serial q + k - (p_serial p + k)) with (p_serial q - p_serial p) by lia.
    replace (p_serial p + k - (p_serial q + k)) with (p_serial p - p_serial q) by lia. reflexivity. }
  rewrite !resolved_len, !resolved_iter, CNT by exact Hnz. refine (conj eq_refl (conj _ _)).
  - intros l [= <-]. rewrite map_map. f_equal. apply map_ext. intros i.
    rewrite !padd_padd. f_equal. lia.
  - intros F. unfold span_add. cbn [sp_start sp_end sp_step ep_add]. rewrite span_make_at.
    rewrite (proj2 (check_some (padd p k) (padd q k))) by exact F. reflexivity.
Qed.

Lemma rev_map_seq : forall (T : Type) (f : nat -> T) N,
  rev (map f (seq 0 N)) = map (fun i => f (N - 1 - i)%nat) (seq 0 N).
Proof.
  intros T f N. induction N as [| N IH]; [reflexivity |].
  transitivity (f N :: rev (map f (seq 0 N))).
  - rewrite seq_S, map_app, rev_app_distr. reflexivity.
  - rewrite IH. change (seq 0 (S N)) with (0%nat :: seq 1 N). cbn [map].
    f_equal; [f_equal; lia |].
    rewrite <- seq_shift, map_map. apply map_ext_in. intros i I. f_equal. lia.
Qed.

Theorem reverse_involutive : forall s, sstep (sstep s OReverse) OReverse = s.
Proof.
  intros s. destruct s as [a b c n]. rewrite !sstep_unfold. cbn. f_equal. lia.
Qed.

(* reversal swaps the ends and negates the step; the reversed span lists the same periods backwards exactly when the
   step divides the distance (otherwise it still enumerates end, end-step, ... down to start, by span_enumerates) *)
Theorem reverse_exact_when_divisible : forall s p q c l,
  sp_needs s = false -> sp_start s = At p -> sp_end s = At q -> sp_step s = c -> c <> 0 ->
  p_freq p = p_freq q ->
  (p_serial q - p_serial p) mod c = 0 -> span_iter s = Ok l ->
  span_iter (sstep s OReverse) = Ok (rev l).
Proof.
  intros s p q c l Hn Hs He Hc Hnz F D L. rewrite (resolved_eta s p q c Hn Hs He Hc) in *.
  change (sstep (mkSpan (At p) (At q) c false) OReverse) with (mkSpan (At q) (At p) (- c) false).
  rewrite resolved_iter in L by exact Hnz. injection L as <-.
  rewrite resolved_iter, span_count_rev, rev_map_seq by lia.
  f_equal. apply map_ext_in. intros i I. apply in_seq in I.
  pose proof (span_count_exact _ _ c Hnz D ltac:(lia)) as LAST.
  apply period_ext; cbn [padd p_freq p_serial]; [symmetry; exact F | unfold gen_period_add].
  rewrite !Nat2Z.inj_sub, Z2Nat.id by lia. cbn [Z.of_nat]. lia.
Qed.

Lemma ep_add_0 : forall e, ep_add e 0 = e.
Proof. destruct e; cbn; [rewrite padd_0; reflexivity | unfold gen_ctx_add; f_equal; lia]. Qed.

Lemma ep_add_add : forall e a b, ep_add (ep_add e a) b = ep_add e (a + b).
Proof. destruct e; intros; cbn; [rewrite padd_padd; reflexivity | unfold gen_ctx_add; f_equal; lia]. Qed.

Lemma ep_resolve_add : forall c e k, ep_resolve c (ep_add e k) = ep_add (ep_resolve c e) k.
Proof.
  intros c e k. destruct e as [p | [|] o]; cbn; [reflexivity | |]; rewrite padd_padd; reflexivity.
Qed.

Lemma ep_resolve_at : forall c e, exists p, ep_resolve c e = At p.
Proof. intros c e. destruct e as [p | [|] o]; cbn; eauto. Qed.

(* Span.resolve as regenerated from the source (gen_span_resolve): an end point that is already a period is kept, a
   contextual one is resolved, and the result is built by the constructor *)
Lemma span_resolve_unfold : forall c s, span_resolve c s =
  span_make (Some (ep_resolve c (sp_start s))) (Some (ep_resolve c (sp_end s))) (sp_step s).
Proof.
  intros c s. unfold span_resolve, gen_span_resolve.
  destruct (sp_start s) as [p | [|] o], (sp_end s) as [q | [|] o']; reflexivity.
Qed.

(* resolving against a context commutes with every in-place operation *)
Theorem resolve_then_ops_commute : forall c s o,
  span_resolve c (sstep s o) = dmap (fun r => sstep r o) (span_resolve c s).
Proof.
  intros c s o. rewrite !span_resolve_unfold.
  destruct (ep_resolve_at c (sp_start s)) as (p & P). destruct (ep_resolve_at c (sp_end s)) as (q & Q).
  rewrite sstep_unfold. destruct o; cbn [sp_start sp_end sp_step]; rewrite ?ep_resolve_add, P, Q; cbn [ep_add]; rewrite !span_make_at;
    unfold check_periods, same_class; cbn [padd p_freq]; rewrite ?(Z.eqb_sym (p_freq q));
    destruct (p_freq p =? p_freq q); reflexivity.
Qed.

Lemma closed_form_step : forall s u o, sstep (closed_form s u) o = closed_form s (sum_step u o).
Proof.
  intros s [fl da db] o. unfold closed_form. cbn [su_flip su_da su_db].
  rewrite sstep_unfold. destruct o, fl; unfold sum_step; cbn [sp_start sp_end sp_step sp_needs su_flip su_da su_db negb]; rewrite ?ep_add_add;
    try reflexivity; f_equal; lia.
Qed.

(* after ANY sequence of in-place mutations the span is the closed form of the history's summary *)
Theorem history_invariant : forall ops s, run_ops s ops = closed_form s (summarize ops).
Proof.
  intros ops s.
  assert (G : forall ops u, fold_left sstep ops (closed_form s u) = closed_form s (fold_left sum_step ops u)).
  { induction ops0 as [| o ops0 IH]; intros u; cbn [fold_left]; [reflexivity |]. rewrite closed_form_step. apply IH. }
  unfold run_ops, summarize. rewrite <- G. f_equal.
  unfold closed_form. cbn [su_flip su_da su_db]. rewrite !ep_add_0. destruct s; reflexivity.
Qed.

Example hypotheses_satisfiable :
  is_regular_freq 4 = true /\ 1 <= 8081 / 4 /\ in_calendar 738000 /\ in_calendar (738000 + 1) /\
  (exists s, span_make (Some (At (mkP 4 8080))) (Some (At (mkP 4 8091))) 3 = Ok s /\ sp_needs s = false /\
             sp_step s <> 0 /\ span_iter s = Ok [mkP 4 8080; mkP 4 8083; mkP 4 8086; mkP 4 8089] /\
             span_iter (sstep s OReverse) = Ok [mkP 4 8091; mkP 4 8088; mkP 4 8085; mkP 4 8082]) /\
  (exists s r, span_make None (Some (Ctx false (-1))) 1 = Ok s /\ sp_needs s = true /\
               span_resolve (mkCtx (mkP 12 24240) (mkP 12 24250)) (run_ops s [OShift 2; OReverse; OShiftEnd 1]) = Ok r /\
               span_iter r = Ok [mkP 12 24251; mkP 12 24250; mkP 12 24249; mkP 12 24248; mkP 12 24247; mkP 12 24246;
                                 mkP 12 24245; mkP 12 24244; mkP 12 24243]).
Proof.
  split; [reflexivity |]. split; [discriminate |]. split; [unfold in_calendar, max_ordinal; lia |].
  split; [unfold in_calendar, max_ordinal; lia |]. split.
  - eexists. split; [reflexivity |]. split; [reflexivity |]. split; [discriminate |]. split; reflexivity.
  - eexists. eexists. split; [reflexivity |]. split; [reflexivity |]. split; reflexivity.
Qed.

Lemma mts_cases : forall m,
  month_to_segment 1 m = 1 /\ month_to_segment 2 m = 1 + (m - 1) / 6 /\ month_to_segment 4 m = 1 + (m - 1) / 3 /\
  month_to_segment 12 m = m.
Proof. intros. repeat split; reflexivity. Qed.

(* the four class bodies are one formula: the segment of a month counts whole periods of 12 / f months before it *)
Lemma mts_formula : forall f m, is_regular_freq f = true -> 1 <= m <= 12 ->
  month_to_segment f m = (m - 1) / (12 / f) + 1.
Proof.
  intros f m R M. destruct (mts_cases m) as (A1 & A2 & A3 & A4).
  destruct (regular_widths f R) as [[-> W] | [[-> W] | [[-> W] | [-> W]]]]; rewrite W; clear W; Z.div_mod_to_equations; lia.
Qed.

Lemma mts_spec : forall f m, is_regular_freq f = true -> 1 <= m <= 12 ->
  let seg := month_to_segment f m in
  1 <= seg <= f /\ seg_start_month f seg <= m <= seg_end_month f seg.
Proof.
  intros f m R M. cbv zeta. rewrite (mts_formula f m R M). unfold seg_start_month, seg_end_month.
  destruct (regular_widths f R) as [[-> W] | [[-> W] | [[-> W] | [-> W]]]]; rewrite W; clear W; Z.div_mod_to_equations; lia.
Qed.

Lemma mts_mono : forall f a b, is_regular_freq f = true -> a <= b -> month_to_segment f a <= month_to_segment f b.
Proof.
  intros f a b R H. destruct (mts_cases a) as (A1 & A2 & A3 & A4). destruct (mts_cases b) as (B1 & B2 & B3 & B4).
  destruct (regular_cases f R) as [-> | [-> | [-> | ->]]]; Z.div_mod_to_equations; lia.
Qed.

(* every month of the seg-th period maps back to seg *)
Lemma mts_of_segment : forall f seg m, is_regular_freq f = true -> 1 <= seg <= f ->
  seg_start_month f seg <= m <= seg_end_month f seg -> month_to_segment f m = seg.
Proof.
  intros f seg m R S M. destruct (seg_months_range f seg R S) as (M1 & M2 & _).
  rewrite mts_formula by (assumption || lia). unfold seg_start_month, seg_end_month in M.
  destruct (regular_widths f R) as [[-> W] | [[-> W] | [[-> W] | [-> W]]]]; rewrite W in *; clear W; Z.div_mod_to_equations; lia.
Qed.

Lemma from_ymd_regular : forall f y m d, is_regular_freq f = true ->
  from_ymd f y m d = Ok (mkP f (y * f + month_to_segment f m - 1)).
Proof.
  intros f y m d R. unfold from_ymd. rewrite (regular_kind f R). unfold gen_reg_from_ymd. reflexivity.
Qed.

(* regular: the date at ANY position converts back to the period *)
Theorem ymd_roundtrip_regular : forall f s pos, is_regular_freq f = true ->
  exists y m d, to_ymd pos (mkP f s) = Ok (y, m, d) /\ from_ymd f y m d = Ok (mkP f s) /\
                y = s / f /\ seg_start_month f (s mod f + 1) <= m <= seg_end_month f (s mod f + 1) /\
                1 <= d <= days_in_month y m.
Proof.
  intros f s pos R. pose proof (regular_pos f R) as F. pose proof (seg_bounds f s F) as S.
  destruct (reg_to_ymd_spec f s R) as (A & C & mm & md & B & Bm & Bd).
  destruct (seg_months_range f (s mod f + 1) R S) as (M1 & M2 & _).
  set (a := seg_start_month f (s mod f + 1)) in *. set (c := seg_end_month f (s mod f + 1)) in *.
  assert (BACK : forall m, a <= m <= c -> forall d, from_ymd f (s / f) m d = Ok (mkP f s)).
  { intros m Hm d. rewrite from_ymd_regular, (mts_of_segment f (s mod f + 1) m R S Hm) by assumption.
    do 2 f_equal. pose proof (Z.div_mod s f). lia. }
  pose proof (dim_range (s / f) a). pose proof (dim_range (s / f) c). clearbody a c.
  destruct pos; [exists (s / f), a, 1 | exists (s / f), mm, md | exists (s / f), c, (days_in_month (s / f) c)];
    (split; [assumption |]); (split; [apply BACK |]); lia.
Qed.

Theorem ymd_roundtrip_daily : forall n pos, in_calendar n ->
  exists y m d, to_ymd pos (mkP freq_DAILY n) = Ok (y, m, d) /\ from_ymd freq_DAILY y m d = Ok (mkP freq_DAILY n) /\
                (y, m, d) = ymd_of_ord n.
Proof.
  intros n pos H. destruct (accessors_vs_calendar_daily n H) as (A & _ & _ & _ & _ & _ & _ & B).
  destruct (ymd_of_ord n) as [[y m] d] eqn:E. exists y, m, d. rewrite A. auto.
Qed.

Lemma ord_in_calendar : forall y m d, valid_ymd y m d -> y <= MAXYEAR -> in_calendar (ord_of_ymd y m d).
Proof.
  intros y m d V Y. pose proof (ord_of_ymd_range y m d V) as R. destruct V as (Y1 & _).
  pose proof (dby_mono 1 y Y1) as Lo. pose proof (dby_mono (y + 1) 10000 ltac:(unfold MAXYEAR in Y; lia)) as Hi.
  change (days_before_year 10000) with max_ordinal in Hi. rewrite dby_1 in Lo. unfold in_calendar. lia.
Qed.

Lemma from_ymd_daily : forall y m d, valid_ymd y m d -> y <= MAXYEAR ->
  from_ymd freq_DAILY y m d = Ok (mkP freq_DAILY (ord_of_ymd y m d)).
Proof.
  intros y m d V Y. unfold from_ymd. rewrite daily_kind. unfold gen_daily_from_ymd.
  rewrite (proj2 (date_ok_spec y m d) (conj V Y)). reflexivity.
Qed.

(* the date of a period of the domain at any position is a valid date of the supported range *)
Lemma domain_date : forall p pos, in_domain p ->
  exists y m d, to_ymd pos p = Ok (y, m, d) /\ valid_ymd y m d /\ y <= MAXYEAR /\ from_ymd (p_freq p) y m d = Ok p.
Proof.
  intros [f s] pos [[R Y] | [E C]]; cbn [p_freq p_serial] in *.
  - destruct (ymd_roundtrip_regular f s pos R) as (y & m & d & A & B & Ey & Em & Ed).
    exists y, m, d. destruct (seg_months_range f (s mod f + 1) R (seg_bounds f s (regular_pos f R))) as (M1 & M2 & _).
    repeat split; try assumption; subst y; lia.
  - subst f. destruct (ymd_roundtrip_daily s pos C) as (y & m & d & A & B & E).
    exists y, m, d. pose proof (ymd_of_ord_valid s ltac:(destruct C; lia)) as V. rewrite <- E in V.
    pose proof (ord_of_ymd_of_ord s) as W. rewrite <- E in W. destruct W as (_ & _ & _ & Ey).
    repeat split; try assumption; try apply V. subst y. apply (year_in_range s C).
Qed.

(* from_ymd returns the target-frequency period that contains the date *)
Lemma from_ymd_contains : forall g y m d, cal_freq g -> valid_ymd y m d -> y <= MAXYEAR ->
  exists r a c, from_ymd g y m d = Ok r /\ p_freq r = g /\ in_domain r /\
                to_ymd PStart r = Ok a /\ to_ymd PEnd r = Ok c /\ valid3 a /\ valid3 c /\
                ord3 a <= ord_of_ymd y m d <= ord3 c.
Proof.
  intros g y m d [R | ->] V Y.
  - destruct V as (Y1 & M & D). destruct (mts_spec g m R M) as (S & Sm). cbv zeta in S, Sm.
    set (seg := month_to_segment g m) in *.
    destruct (year_seg_of_serial g y seg (regular_pos g R) S) as (Ey & Es).
    destruct (reg_to_ymd_spec g (y * g + seg - 1) R) as (A & C & _). rewrite Ey, Es in A, C.
    destruct (seg_dates g y seg m d R Y1 S Sm D) as (Va & _ & Vc & O).
    do 3 eexists. split; [apply from_ymd_regular; assumption |]. fold seg.
    refine (conj eq_refl (conj _ (conj A (conj C (conj Va (conj Vc O)))))).
    left. cbn [p_freq p_serial]. rewrite Ey. split; [assumption | lia].
  - pose proof (ord_in_calendar y m d V Y) as C.
    exists (mkP freq_DAILY (ord_of_ymd y m d)), (y, m, d), (y, m, d).
    rewrite !to_ymd_daily, ymd_of_ord_of_ymd by assumption. cbn [valid3 ord3].
    refine (conj (from_ymd_daily y m d V Y) (conj eq_refl (conj _ (conj eq_refl (conj eq_refl (conj V (conj V _))))))).
    + right. split; [reflexivity | exact C].
    + lia.
Qed.

Lemma ep_resolve_freq : forall c e p, ep_resolve c e = At p -> p_freq p = ep_freq_in c e.
Proof.
  intros c e p H. destruct e as [r | [|] o]; cbn in H; injection H as <-; cbn [ep_freq_in]; reflexivity.
Qed.

(* Span.resolve(context), for EVERY span (concrete, half-open, fully open, any offsets, any step, any value of the
   needs_resolve flag) and EVERY context: it either rejects with IrisPieError -- exactly when the two resolved ends are
   periods of different frequencies -- or returns a resolved span whose two ends are periods of ONE frequency, namely
   the fixed end points / the context's dates moved by the offsets, with the step unchanged *)
Theorem resolve_rejects_or_single_frequency : forall c s,
  match span_resolve c s with
  | Err e => e = ErrFreq /\ ep_freq_in c (sp_start s) <> ep_freq_in c (sp_end s)
  | Ok r => sp_needs r = false /\ sp_step r = sp_step s /\
            sp_start r = ep_resolve c (sp_start s) /\ sp_end r = ep_resolve c (sp_end s) /\
            exists p q, sp_start r = At p /\ sp_end r = At q /\ p_freq p = p_freq q /\
                        p_freq p = ep_freq_in c (sp_start s) /\ p_freq q = ep_freq_in c (sp_end s)
  end.
Proof.
  intros c s. rewrite span_resolve_unfold.
  destruct (ep_resolve_at c (sp_start s)) as (p & P). destruct (ep_resolve_at c (sp_end s)) as (q & Q).
  rewrite P, Q, span_make_at.
  pose proof (ep_resolve_freq _ _ _ P) as FP. pose proof (ep_resolve_freq _ _ _ Q) as FQ.
  destruct (check_periods p (Some q)) eqn:K.
  - apply check_some in K. cbn [sp_needs sp_step sp_start sp_end]. repeat split. exists p, q. repeat split; assumption.
  - split; [reflexivity |]. intros F. rewrite <- FP, <- FQ in F. apply check_some in F. congruence.
Qed.

Lemma span_iter_freq : forall t p xs x, sp_start t = At p -> span_iter t = Ok xs -> In x xs -> p_freq x = p_freq p.
Proof.
  intros t p xs x Sp L X. unfold span_iter, span_freq in L. rewrite Sp in L.
  destruct (sp_needs t); [discriminate |].
  destruct (span_serials t) as [zs | e]; cbn [dmap] in L; [| discriminate]. injection L as <-.
  apply in_map_iff in X. destruct X as (z & <- & _). reflexivity.
Qed.

Lemma apply_op_wf : forall s a s', span_wf s -> apply_op s a = Ok s' -> span_wf s'.
Proof.
  intros s a s' W H. destruct a; cbn [apply_op] in H.
  - injection H as <-. apply sstep_wf. assumption.
  - eapply span_make_wf. exact H.
  - eapply span_make_wf. exact H.
  - unfold span_rshift in H. destruct (k <? 0); [discriminate |]. eapply span_make_wf. exact H.
  - unfold span_lshift in H. destruct (k >? 0); [discriminate |]. eapply span_make_wf. exact H.
  - injection H as <-. apply sstep_wf. assumption.
  - rewrite span_resolve_unfold in H. eapply span_make_wf. exact H.
Qed.

Lemma run_public_wf : forall l s, span_wf s -> span_wf (run_public s l).
Proof.
  induction l as [| a l IH]; intros s W; cbn [run_public]; [assumption |].
  destruct (apply_op s a) as [s' | e] eqn:A; apply IH; [eapply apply_op_wf; eassumption | assumption].
Qed.

(* HISTORIES: whatever sequence of public operations -- including any number of resolutions against contexts of any
   frequencies -- is applied to a span that the constructor accepted, a span that claims to be resolved has two period
   ends of ONE frequency, and its listing has that frequency *)
Theorem every_history_single_frequency : forall l a b c s, span_make a b c = Ok s ->
  let t := run_public s l in
  span_wf t /\
  (sp_needs t = false -> exists p q, sp_start t = At p /\ sp_end t = At q /\ p_freq p = p_freq q /\
                                    forall xs x, span_iter t = Ok xs -> In x xs -> p_freq x = p_freq p).
Proof.
  intros l a b c s M t. assert (W : span_wf t) by (apply run_public_wf; eapply span_make_wf; exact M).
  split; [exact W |]. intros N. destruct W as (_ & W2). destruct (W2 N) as (p & q & Sp & Sq & F).
  exists p, q. repeat split; try assumption. intros xs x. apply span_iter_freq. assumption.
Qed.

(* non-vacuity: a quarterly start with an open end against a monthly context is rejected, against a quarterly context
   it resolves and lists quarters; a fully open span against a context with a quarterly start and a monthly end is
   rejected; a history with two resolutions of which the first is rejected *)
Example resolve_examples :
  (exists s, span_make (Some (At (mkP 4 8080))) None 1 = Ok s /\ sp_needs s = true /\
     span_resolve (mkCtx (mkP 12 24240) (mkP 12 24246)) s = Err ErrFreq /\
     (exists r, span_resolve (mkCtx (mkP 4 8078) (mkP 4 8083)) s = Ok r /\
                span_iter r = Ok [mkP 4 8080; mkP 4 8081; mkP 4 8082; mkP 4 8083]) /\
     (exists r, run_public s [PMut (OShiftEnd (-1)); PResolve (mkCtx (mkP 12 24240) (mkP 12 24246)); PMut OReverse;
                              PResolve (mkCtx (mkP 4 8078) (mkP 4 8083))] = r /\
                span_iter r = Ok [mkP 4 8082; mkP 4 8081; mkP 4 8080])) /\
  (exists s, span_make None None (-2) = Ok s /\
     span_resolve (mkCtx (mkP 4 8078) (mkP 12 24246)) s = Err ErrFreq /\
     exists r, span_resolve (mkCtx (mkP 12 24240) (mkP 12 24246)) s = Ok r /\
               span_iter r = Ok [mkP 12 24246; mkP 12 24244; mkP 12 24242; mkP 12 24240]).
Proof.
  split.
  - eexists. split; [reflexivity |]. split; [reflexivity |]. split; [reflexivity |]. split.
    + eexists. split; reflexivity.
    + eexists. split; reflexivity.
  - eexists. split; [reflexivity |]. split; [reflexivity |]. eexists. split; reflexivity.
Qed.
