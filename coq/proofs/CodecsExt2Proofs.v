(* Proofs about model/CodecsExt2.v (C11):
   start_period_only=True for a block of any length under any padding and any codec pair: only the first cell is
   decoded, row i is start + i, and the rows of the block are the exported periods iff the block is a run of
   consecutive periods;
   parse(repr(p)) = (constructor, integers) for every period of every class, hence eval(repr(p)) = p on the TEXT;
   what the imported series holds when periods repeat or rows are unsorted (last write). *)
From Coq Require Import ZArith Bool Ascii String List Lia.
From Verif Require Import lib.Calendar lib.RegexSub lib.PyStr gen.DatesGen model.Dates model.Codecs
     gen.CodecsExtGen model.CodecsExt model.CodecsExt2 proofs.DatesProofs proofs.CodecsProofs proofs.CodecsExtProofs.
Import ListNotations.
Open Scope Z_scope.

Lemma zrange0_eq : forall n i, zrange0 i n = zrange i n.
Proof. induction n; intros; cbn; [reflexivity | rewrite IHn; reflexivity]. Qed.

Lemma firstn_zrange0 : forall n k i, firstn n (zrange0 i (n + k)) = zrange0 i n.
Proof. induction n; intros; cbn; [reflexivity | rewrite IHn; reflexivity]. Qed.

Lemma zrange0_length : forall n i, length (zrange0 i n) = n.
Proof. induction n; intros; cbn; [reflexivity | rewrite IHn; reflexivity]. Qed.

Lemma enumerate_run : forall (g : Z -> period) ps i,
  enumerate_from i ps = map (fun j => (j, g j)) (zrange0 i (length ps)) <-> ps = map g (zrange0 i (length ps)).
Proof.
  induction ps as [|p ps IH]; intros i; cbn; [split; reflexivity|].
  split; intros H; injection H as H1 H2; apply IH in H2; rewrite H1 at 1; f_equal; exact H2.
Qed.

Section StartOnly.
  Variable enc : period -> dres str.
  Variable dec : Z -> str -> dres period.
  Variable dom : period -> Prop.
  Hypothesis H_rt : forall p, dom p -> exists x, enc p = Ok x /\ dec (p_freq p) x = Ok p.

  (* a block of any length, any padding: the rows are start + 0, start + 1, ... for EVERY row of the sheet (padding rows
     included); they are the exported periods on the block's own rows iff the block is a run of consecutive periods *)
  Theorem start_only_block_general : forall b total, block_ok dom b ->
    exists p0 rest cells,
      snd b = p0 :: rest /\
      export_column enc total (snd b) = Ok cells /\
      length cells = (length (snd b) + gen_export_padding total (length (snd b)))%nat /\
      extract_block dec true (fst b) cells = Ok (start_only_rows p0 (length cells)) /\
      (firstn (length (snd b)) (start_only_rows p0 (length cells)) = enumerate_from 0 (snd b)
         <-> snd b = run_from p0 (length (snd b))).
  Proof.
    intros [f ps] total [NE F]. cbn [fst snd] in *.
    destruct ps as [|p ps]; [congruence|]. exists p, ps.
    destruct (map_dres_enc enc dec dom H_rt f (p :: ps) F) as (c & C & L).
    exists (c ++ repeat [] (gen_export_padding total (length (p :: ps)))).
    assert (LL : length (c ++ repeat [] (gen_export_padding total (length (p :: ps))))
                 = (length (p :: ps) + gen_export_padding total (length (p :: ps)))%nat)
      by (rewrite app_length, repeat_length, L; reflexivity).
    split; [reflexivity|]. split; [unfold export_column; rewrite C; reflexivity|]. split; [exact LL|]. split.
    - inversion F as [|? ? [_ <-] _]; subst.
      rewrite (extract_block_start enc dec dom H_rt true p ps c _ F C), extract_rows_start_only, <- zrange0_eq.
      reflexivity.
    - rewrite LL. unfold start_only_rows, run_from. rewrite firstn_map, firstn_zrange0.
      split; intros H.
      + apply (enumerate_run (fun j => padd p j)). symmetry. exact H.
      + symmetry. apply (enumerate_run (fun j => padd p j)). exact H.
  Qed.

  (* the whole sheet under start_period_only: block after block, every block a function of its first cell only *)
  Theorem start_only_sheet : forall blocks, Forall (block_ok dom) blocks ->
    exists cols, export_sheet enc blocks = Ok cols /\
      import_sheet dec true cols
        = Ok (map (fun b => (fst b, start_only_rows (hd (mkP 0 0) (snd b))
                     (length (snd b) + gen_export_padding (total_rows blocks) (length (snd b))))) blocks).
  Proof.
    intros blocks F. apply (import_blocks enc dec true).
    eapply Forall_impl; [| exact F]. intros b B.
    destruct (start_only_block_general b (total_rows blocks) B) as (p0 & rest & cells & S & C & L & E & _).
    exists cells. split; [exact C |]. cbv beta. rewrite <- L, S. exact E.
  Qed.
End StartOnly.

(* non-vacuity: a consecutive block comes back; a block with a hole does not (its second row is read as start + 1) *)
Example start_only_example :
  block_ok in_domain (4, [mkP 4 8084; mkP 4 8085; mkP 4 8086]) /\ block_ok in_domain (4, [mkP 4 8084; mkP 4 8086]) /\
  [mkP 4 8084; mkP 4 8085; mkP 4 8086] = run_from (mkP 4 8084) 3 /\ [mkP 4 8084; mkP 4 8086] <> run_from (mkP 4 8084) 2 /\
  bind (export_column (fmt_period (FmtIso PEnd)) 4 [mkP 4 8084; mkP 4 8086]) (extract_block (parse_cell ParIso) true 4)
    = Ok [(0, mkP 4 8084); (1, mkP 4 8085); (2, mkP 4 8086); (3, mkP 4 8087)].
Proof.
  assert (D4 : forall s, 8084 <= s <= 8086 -> in_domain (mkP 4 s)).
  { intros s H. left. cbn [p_freq p_serial]. split; [reflexivity|].
    assert (2021 = s / 4) by (apply (Z.div_unique s 4 2021 (s - 8084)); lia).
    unfold MAXYEAR. lia. }
  split; [|split; [|split; [|split]]].
  - split; [discriminate|]. cbn [fst snd]. repeat (apply Forall_cons; [split; [apply D4; lia|reflexivity]|]). apply Forall_nil.
  - split; [discriminate|]. cbn [fst snd]. repeat (apply Forall_cons; [split; [apply D4; lia|reflexivity]|]). apply Forall_nil.
  - vm_compute. reflexivity.
  - vm_compute. discriminate.
  - vm_compute. reflexivity.
Qed.

Definition argchar (c : ascii) : bool := is_digit c || Ascii.eqb c "-".

Lemma argchar_not_sep : forall c, argchar c = true ->
  Ascii.eqb c ")" = false /\ Ascii.eqb c "," = false /\ Ascii.eqb c " " = false.
Proof.
  intros c H. repeat split;
    [destruct (Ascii.eqb_spec c ")") | destruct (Ascii.eqb_spec c ",") | destruct (Ascii.eqb_spec c " ")];
    try reflexivity; subst c; discriminate H.
Qed.

Lemma forallb_digits_argchars : forall s, all_digits s = true -> forallb argchar s = true.
Proof.
  induction s as [|c s IH]; intros H; [reflexivity|]. cbn in H. apply andb_true_iff in H. destruct H as [A B].
  cbn. unfold argchar at 1. rewrite A. cbn. apply IH. exact B.
Qed.

Lemma dec_int_argchars : forall n, forallb argchar (dec_int n) = true.
Proof.
  intros n. unfold dec_int. destruct (Z.ltb_spec n 0).
  - cbn [forallb]. apply andb_true_iff. split; [reflexivity|].
    apply forallb_digits_argchars. apply dec_nat_digits. lia.
  - apply forallb_digits_argchars. apply dec_nat_digits. lia.
Qed.

Lemma split_args_comma : forall t cur, split_args (","%char :: t) cur = option_map (cons cur) (split_args t []).
Proof. reflexivity. Qed.
Lemma split_args_close : forall cur, split_args [")"%char] cur = Some [cur].
Proof. reflexivity. Qed.

Lemma split_args_skip : forall a s cur, forallb argchar a = true -> split_args (a ++ s) cur = split_args s (cur ++ a).
Proof.
  induction a as [|c a IH]; intros s cur H; cbn [app].
  - rewrite app_nil_r. reflexivity.
  - cbn in H. apply andb_true_iff in H. destruct H as [Hc Ha]. destruct (argchar_not_sep c Hc) as (E1 & E2 & _).
    cbn [split_args]. rewrite E1, E2. rewrite IH by assumption. rewrite <- app_assoc. reflexivity.
Qed.

Lemma split_args_join : forall r x cur, forallb argchar x = true -> Forall (fun y => forallb argchar y = true) r ->
  split_args (join_tight x r ++ [")"%char]) cur = Some ((cur ++ x) :: r).
Proof.
  induction r as [|y r IH]; intros x cur Hx Hr; cbn [join_tight].
  - rewrite split_args_skip by assumption. apply split_args_close.
  - inversion Hr as [|? ? Hy Hr']; subst. rewrite <- app_assoc, <- app_comm_cons.
    rewrite split_args_skip by assumption. rewrite split_args_comma. rewrite IH by assumption. reflexivity.
Qed.

Lemma take_letters_call : forall name c t, forallb is_letter name = true -> is_letter c = false ->
  take_letters (name ++ c :: t) = name.
Proof.
  induction name as [|a name IH]; intros c t H Hc; cbn [app take_letters].
  - rewrite Hc. reflexivity.
  - cbn in H. apply andb_true_iff in H. destruct H as [Ha Hn]. rewrite Ha. rewrite IH by assumption. reflexivity.
Qed.

(* the parser reads back any call text: name(a,b,...) -> (name, [a; b; ...]) for all integers, negative ones included *)
Theorem parse_call : forall name a r, forallb is_letter name = true -> parse_repr (call_text name a r) = Some (name, a :: r).
Proof.
  intros name a r H. unfold parse_repr, call_text.
  rewrite take_letters_call by (assumption || reflexivity).
  rewrite skipn_app, skipn_all, Nat.sub_diag. cbn [skipn app].
  change (Ascii.eqb "(" "(") with true. cbv iota.
  rewrite split_args_join.
  - cbn [app]. change (dec_int a :: map dec_int r) with (map dec_int (a :: r)). rewrite map_map.
    rewrite (map_ext _ Some) by (intros; apply parse_int_dec_int). rewrite all_some_map_some. reflexivity.
  - apply dec_int_argchars.
  - apply Forall_forall. intros y Hy. apply in_map_iff in Hy. destruct Hy as (z & <- & _). apply dec_int_argchars.
Qed.

Lemma remove_blanks_cons : forall c s, Ascii.eqb c " " = false -> remove_blanks (c :: s) = c :: remove_blanks s.
Proof. intros c s H. unfold remove_blanks. cbn [filter]. rewrite H. reflexivity. Qed.
Lemma remove_blanks_app : forall a b, remove_blanks (a ++ b) = remove_blanks a ++ remove_blanks b.
Proof. intros. apply filter_app. Qed.
Lemma remove_blanks_args : forall s, forallb argchar s = true -> remove_blanks s = s.
Proof.
  induction s as [|c s IH]; intros H; [reflexivity|]. cbn in H. apply andb_true_iff in H. destruct H as [Hc Hs].
  destruct (argchar_not_sep c Hc) as (_ & _ & E). rewrite remove_blanks_cons by assumption. rewrite IH by assumption. reflexivity.
Qed.
Lemma remove_blanks_dec_int : forall n, remove_blanks (dec_int n) = dec_int n.
Proof. intros. apply remove_blanks_args, dec_int_argchars. Qed.

(* .replace(" ", "") turns the repr of a tuple of two or more integers into the tight argument list *)
Lemma remove_blanks_join_comma : forall r x, remove_blanks (join_comma (map dec_int (x :: r))) = join_tight (dec_int x) (map dec_int r).
Proof.
  induction r as [|y r IH]; intros x; [apply remove_blanks_dec_int |].
  change (join_comma (map dec_int (x :: y :: r))) with (dec_int x ++ ","%char :: " "%char :: join_comma (map dec_int (y :: r))).
  rewrite remove_blanks_app, remove_blanks_dec_int, remove_blanks_cons by reflexivity. change (remove_blanks (" "%char :: ?t)) with (remove_blanks t).
  rewrite IH. reflexivity.
Qed.

Lemma remove_blanks_tuple : forall a b r,
  remove_blanks (tuple_repr (a :: b :: r)) = "("%char :: join_tight (dec_int a) (map dec_int (b :: r)) ++ [")"%char].
Proof. intros. unfold tuple_repr. rewrite remove_blanks_cons, remove_blanks_app, remove_blanks_join_comma by reflexivity. reflexivity. Qed.

(* the text of repr(p) is the call text of its structured term, for every class *)
Theorem repr_text : forall p, sdmx_domain p ->
  exists name a r, forallb is_letter name = true /\ repr_term p = Ok (name, a :: r) /\ repr_str p = Ok (call_text name a r).
Proof.
  intros [f s] D. destruct D as [[[R Y] | [E C]] | E]; cbn [p_freq p_serial] in *;
    [destruct (regular_cases f R) as [-> | [-> | [-> | ->]]];
       [exists (s2l "yy"), (s / freq_YEARLY), []
       |exists (s2l "hh"), (s / freq_HALFYEARLY), [s mod freq_HALFYEARLY + 1]
       |exists (s2l "qq"), (s / freq_QUARTERLY), [s mod freq_QUARTERLY + 1]
       |exists (s2l "mm"), (s / freq_MONTHLY), [s mod freq_MONTHLY + 1]]
    |subst f; exists (s2l "dd"), (year_of_ord s), [month_of_ord s; day_of_ord s]
    |subst f; exists (s2l "ii"), s, []];
    (split; [reflexivity | split]).
  (* the pieces of the class; the term is read off them, the text is rendered and stripped of blanks *)
  all: unfold repr_term, repr_str, repr_pieces; cbn [p_freq p_serial]; freq_tests;
    unfold gen_repr_YEARLY, gen_repr_HALFYEARLY, gen_repr_QUARTERLY, gen_repr_MONTHLY, gen_repr_INTEGER, gen_repr_DAILY;
    rewrite ?(ord_ok_true s) by assumption; try reflexivity.
  all: cbn [dmap of_opt bind render render_piece]; rewrite ?remove_blanks_app, ?remove_blanks_dec_int, ?remove_blanks_tuple, ?app_nil_r; reflexivity.
Qed.

Example repr_text_example :
  sdmx_domain (mkP freq_INTEGER (-5)) /\ repr_str (mkP freq_INTEGER (-5)) = Ok (s2l "ii(-5)") /\
  parse_repr (s2l "ii(-5)") = Some (s2l "ii", [-5]) /\ eval_repr_text (s2l "ii(-5)") = Ok (mkP freq_INTEGER (-5)) /\
  parse_repr (s2l "dd(2021,7,29)") = Some (s2l "dd", [2021; 7; 29]) /\
  eval_repr_text (s2l "dd(2021,7,29)") = Ok (mkP freq_DAILY 738000) /\
  parse_repr (s2l "qq(2021,1") = None /\ parse_repr (s2l "qq(2021,,1)") = None /\ parse_repr (s2l "qq(2021,1))") = None.
Proof. split; [right; reflexivity|]. vm_compute. repeat split; reflexivity. Qed.

Lemma period_eqb_eq : forall p q, period_eqb p q = true <-> p = q.
Proof.
  intros [f s] [g t]. unfold period_eqb. cbn [p_freq p_serial]. rewrite andb_true_iff, !Z.eqb_eq.
  split; [intros [-> ->]; reflexivity | intros H; injection H; auto].
Qed.

(* the series holds nothing at q iff no row carries q *)
Theorem series_lookup_none : forall rows q, series_lookup rows q = None <-> ~ In q (map snd rows).
Proof.
  induction rows as [|[i0 p0] r IH]; intros q; cbn [series_lookup map snd].
  - split; [intros _ [] | reflexivity].
  - destruct (series_lookup r q) as [j|] eqn:E.
    + split; [discriminate|]. intros H. exfalso.
      assert (N : series_lookup r q = None) by (apply IH; intros I; apply H; right; exact I). congruence.
    + destruct (period_eqb p0 q) eqn:Pe.
      * split; [discriminate|]. intros H. exfalso. apply H. left. apply period_eqb_eq, Pe.
      * split; [|reflexivity]. intros _ [Hq | I]; [apply period_eqb_eq in Hq; congruence | exact (proj1 (IH q) E I)].
Qed.

(* the series holds row i at q iff row i carries q and no LATER row does (rows in any order, periods may repeat) *)
Theorem series_lookup_some : forall rows q i,
  series_lookup rows q = Some i <-> exists r1 r2, rows = r1 ++ (i, q) :: r2 /\ ~ In q (map snd r2).
Proof.
  induction rows as [|[i0 p0] r IH]; intros q i; cbn [series_lookup].
  - split; [discriminate|]. intros (r1 & r2 & H & _). destruct r1; discriminate.
  - split.
    + intros H. destruct (series_lookup r q) as [j|] eqn:E.
      * injection H as ->. apply IH in E. destruct E as (r1 & r2 & -> & B).
        exists ((i0, p0) :: r1), r2. split; [reflexivity | exact B].
      * destruct (period_eqb p0 q) eqn:Pe; [|discriminate]. injection H as <-. apply period_eqb_eq in Pe. subst p0.
        exists [], r. split; [reflexivity | apply series_lookup_none, E].
    + intros (r1 & r2 & H & B). destruct r1 as [|x r1]; cbn [app] in H; inversion H; subst.
      * rewrite (proj2 (series_lookup_none r2 q) B), (proj2 (period_eqb_eq q q) eq_refl). reflexivity.
      * rewrite (proj2 (IH q i)); [reflexivity|]. exists r1, r2. auto.
Qed.

Lemma filter_all : forall (T : Type) (f : T -> bool) l, (forall x, In x l -> f x = true) -> filter f l = l.
Proof.
  induction l as [|x l IH]; intros H; [reflexivity|]. cbn [filter]. rewrite (H x (or_introl eq_refl)).
  rewrite IH; [reflexivity|]. intros y I. apply H. right. exact I.
Qed.

(* no period repeats (rows in ANY order): every row written is visible in the series *)
Theorem surviving_rows_nodup : forall rows, NoDup (map snd rows) -> surviving_rows rows = rows.
Proof.
  intros rows N. unfold surviving_rows. apply filter_all. intros [i p] I.
  destruct (in_split _ _ I) as (r1 & r2 & E).
  assert (L : series_lookup rows p = Some i).
  { apply series_lookup_some. exists r1, r2. split; [exact E|]. intros I'.
    rewrite E, map_app in N. cbn [map snd] in N. apply NoDup_remove_2 in N. apply N, in_or_app. right. exact I'. }
  rewrite L. apply Z.eqb_refl.
Qed.

Lemma snd_enumerate_from : forall (T : Type) (l : list T) i, map snd (enumerate_from i l) = l.
Proof. induction l; intros; cbn; [reflexivity | rewrite IHl; reflexivity]. Qed.

Section LastWrite.
  Variable enc : period -> dres str.
  Variable dec : Z -> str -> dres period.
  Variable dom : period -> Prop.
  Hypothesis H_rt : forall p, dom p -> exists x, enc p = Ok x /\ dec (p_freq p) x = Ok p.
  Hypothesis H_ne : forall p, dom p -> enc p <> Ok [].

  (* a block whose periods are in any order and may repeat: the rows read are (i, period written in row i); the series
     holds at q the last row that carries q; without repeats every row is visible whatever the order *)
  Theorem block_last_write : forall b total, block_ok dom b ->
    exists cells, export_column enc total (snd b) = Ok cells /\
      extract_block dec false (fst b) cells = Ok (enumerate_from 0 (snd b)) /\
      (forall q, series_lookup (enumerate_from 0 (snd b)) q = None <-> ~ In q (snd b)) /\
      (forall q i, series_lookup (enumerate_from 0 (snd b)) q = Some i <->
         exists r1 r2, enumerate_from 0 (snd b) = r1 ++ (i, q) :: r2 /\ ~ In q (map snd r2)) /\
      (NoDup (snd b) -> surviving_rows (enumerate_from 0 (snd b)) = enumerate_from 0 (snd b)).
  Proof.
    intros b total B. destruct (extract_block_enc enc dec dom H_rt H_ne b total B) as (cells & C & E).
    exists cells. split; [exact C|]. split; [exact E|]. split; [|split].
    - intros q. rewrite series_lookup_none, snd_enumerate_from. reflexivity.
    - intros q i. apply series_lookup_some.
    - intros N. apply surviving_rows_nodup. rewrite snd_enumerate_from. exact N.
  Qed.
End LastWrite.

(* non-vacuity: unsorted rows with a repeated period: the earlier row of the repeated period is overwritten *)
Example last_write_example :
  surviving_rows (enumerate_from 0 [mkP 4 8086; mkP 4 8084; mkP 4 8086; mkP 4 8085])
    = [(1, mkP 4 8084); (2, mkP 4 8086); (3, mkP 4 8085)] /\
  series_lookup (enumerate_from 0 [mkP 4 8086; mkP 4 8084; mkP 4 8086; mkP 4 8085]) (mkP 4 8086) = Some 2 /\
  series_lookup (enumerate_from 0 [mkP 4 8086; mkP 4 8084; mkP 4 8086; mkP 4 8085]) (mkP 4 8087) = None.
Proof. vm_compute. repeat split; reflexivity. Qed.
