(* Proofs about model/Frames.v and model/Stacked.v (C06). *)
From Coq Require Import ZArith List Bool Lia Sorted Permutation Reals Lra.
From Verif Require Import gen.FramesGen model.Frames model.Stacked.
Import ListNotations.
Open Scope Z_scope.

Lemma zrange_from_length : forall n a, length (zrange_from a n) = n.
Proof. induction n; intros; simpl; auto. Qed.

Lemma zrange_from_app : forall n m a,
  zrange_from a (n + m) = zrange_from a n ++ zrange_from (a + Z.of_nat n) m.
Proof.
  induction n; intros; simpl.
  - f_equal. lia.
  - f_equal. rewrite IHn. f_equal. f_equal. lia.
Qed.

Lemma zrange_app : forall a b c, a <= b <= c -> zrange a b ++ zrange b c = zrange a c.
Proof.
  intros. unfold zrange.
  replace (Z.to_nat (c - a)) with (Z.to_nat (b - a) + Z.to_nat (c - b))%nat by lia.
  rewrite zrange_from_app. f_equal. f_equal. lia.
Qed.

Lemma zrange_from_In : forall n a x, In x (zrange_from a n) <-> a <= x < a + Z.of_nat n.
Proof.
  induction n; intros; simpl.
  - lia.
  - rewrite IHn. lia.
Qed.

Lemma zrange_In : forall a b x, In x (zrange a b) <-> a <= x < b.
Proof. intros. unfold zrange. rewrite zrange_from_In. lia. Qed.

Lemma zrange_from_nth : forall n a k, (k < n)%nat -> nth k (zrange_from a n) 0 = a + Z.of_nat k.
Proof. induction n; intros a k Hk; [lia |]. destruct k; simpl; [lia |]. rewrite IHn by lia. lia. Qed.

Lemma zrange_from_last : forall n a d, last (zrange_from a (S n)) d = a + Z.of_nat n.
Proof.
  intros. replace (S n) with (n + 1)%nat by lia. rewrite zrange_from_app. cbn [zrange_from]. apply last_last.
Qed.

(* the base periods sit at the columns -lo, -lo+1, ... of the data array *)
Theorem base_columns_spec : forall b0 lo p, column_of (b0 + lo) p = p - b0 - lo.
Proof. intros. unfold column_of. lia. Qed.

Lemma break_periods_cons : forall b bp a ps,
  break_periods (b :: bp) (a :: ps) = if b then a :: break_periods bp ps else break_periods bp ps.
Proof. intros. unfold break_periods. simpl. destruct b; reflexivity. Qed.

(* the break periods are the periods of the span whose flag is set ... *)
Lemma break_periods_In : forall n a bp x, length bp = n ->
  (In x (break_periods bp (zrange_from a n)) <->
   a <= x < a + Z.of_nat n /\ nth (Z.to_nat (x - a)) bp false = true).
Proof.
  induction n; intros a bp x L; destruct bp as [| b bp]; try discriminate.
  - unfold break_periods. simpl. lia.
  - injection L as L. change (zrange_from a (S n)) with (a :: zrange_from (a + 1) n).
    rewrite break_periods_cons.
    assert (H : In x (if b then a :: break_periods bp (zrange_from (a + 1) n)
                      else break_periods bp (zrange_from (a + 1) n)) <->
                (b = true /\ a = x) \/ In x (break_periods bp (zrange_from (a + 1) n)))
      by (destruct b; simpl; [tauto | intuition discriminate]).
    rewrite H, (IHn (a + 1) bp x L). clear H.
    destruct (Z.lt_trichotomy x a) as [Hx | [-> | Hx]].
    + split; [intros [[_ E] | [Hr _]] | intros [Hr _]]; lia.
    + rewrite Z.sub_diag. simpl. split.
      * intros [[Hb _] | [Hr _]]; [split; [lia | exact Hb] | lia].
      * intros [_ Hb]. left. auto.
    + replace (Z.to_nat (x - a)) with (S (Z.to_nat (x - (a + 1)))) by lia. simpl. split.
      * intros [[_ E] | [Hr Hn]]; [lia | split; [lia | exact Hn]].
      * intros [Hr Hn]. right. split; [lia | exact Hn].
Qed.

(* ... in increasing order: with a lower bound in front and the end of the span behind, a strictly sorted list *)
Lemma break_periods_sorted : forall n a bp lo, length bp = n -> lo < a ->
  StronglySorted Z.lt (lo :: break_periods bp (zrange_from a n) ++ [a + Z.of_nat n]).
Proof.
  induction n; intros a bp lo L Hlo.
  - destruct bp; [| discriminate]. repeat constructor. lia.
  - destruct bp as [| b bp]; [discriminate |]. injection L as L.
    change (zrange_from a (S n)) with (a :: zrange_from (a + 1) n). rewrite break_periods_cons.
    replace (a + Z.of_nat (S n)) with (a + 1 + Z.of_nat n) by lia.
    destruct b; [| apply IHn; [exact L | lia]].
    assert (S := IHn (a + 1) bp a L ltac:(lia)). constructor; [exact S |].
    apply StronglySorted_inv in S. constructor; [exact Hlo |].
    eapply Forall_impl; [| exact (proj2 S)]. simpl. intros. lia.
Qed.

(* consecutive pairs (l_i, l_{i+1}), the last one closed by e *)
Definition pairs (l : list Z) (e : Z) : list (Z * Z) := combine l (tl l ++ [e]).

Lemma pairs_cons2 : forall x y r e, pairs (x :: y :: r) e = (x, y) :: pairs (y :: r) e.
Proof. reflexivity. Qed.

Lemma pairs_fst : forall l e, map fst (pairs l e) = l.
Proof.
  induction l as [| x [| y r] IH]; intros; try reflexivity.
  rewrite pairs_cons2. simpl map. f_equal. apply IH.
Qed.

(* the ranges between consecutive elements of an increasing list are non-empty and tile the range it spans *)
Lemma pairs_tile : forall l x e, StronglySorted Z.lt (x :: l ++ [e]) ->
  concat (map (fun sn => zrange (fst sn) (snd sn)) (pairs (x :: l) e)) = zrange x e
  /\ Forall (fun sn => fst sn < snd sn) (pairs (x :: l) e).
Proof.
  induction l as [| y r IH]; intros x e S; apply StronglySorted_inv in S; destruct S as [S Hx].
  - simpl. rewrite app_nil_r. split; [reflexivity |]. repeat constructor. inversion Hx; assumption.
  - rewrite pairs_cons2. simpl map. simpl concat. destruct (IH y e S) as [T P]. rewrite T.
    assert (Hxy : x < y) by (inversion Hx; assumption).
    assert (Hye : y < e).
    { apply StronglySorted_inv in S. destruct S as [_ Hy]. rewrite Forall_forall in Hy. apply Hy, in_or_app. simpl. auto. }
    split; [apply zrange_app; simpl; lia | constructor; [exact Hxy | exact P]].
Qed.

Definition frame_cover (f : frame) : list Z := zrange (f_start f) (f_end f + 1).

Lemma split_frames_eq : forall se bp ps,
  split_frames se bp ps =
  map (fun sn => mkFrame (fst sn) (snd sn - 1) (se (fst sn) (snd sn - 1)))
      (pairs (break_periods bp ps) (last ps 0 + 1)).
Proof. reflexivity. Qed.

(* frames partition the base span, in order; each frame is non-empty and starts at a break point;
   the first frame starts at the first base period *)
Theorem frames_tile : forall se n a bp,
  (0 < n)%nat -> length bp = n -> hd false bp = true ->
  let ps := zrange_from a n in
  let frs := split_frames se bp ps in
  concat (map frame_cover frs) = ps
  /\ map f_start frs = break_periods bp ps
  /\ Forall (fun f => f_start f <= f_end f
                      /\ a <= f_start f < a + Z.of_nat n
                      /\ nth (Z.to_nat (f_start f - a)) bp false = true
                      /\ f_sim_end f = se (f_start f) (f_end f)) frs
  /\ hd_error (map f_start frs) = Some a.
Proof.
  intros se n a bp Hn L Hhd ps frs.
  destruct bp as [| b bp']; [simpl in L; lia |]. simpl in Hhd. subst b.
  destruct n as [| n']; [lia |]. injection L as L'.
  assert (Ebp : break_periods (true :: bp') ps = a :: break_periods bp' (zrange_from (a + 1) n'))
    by apply break_periods_cons.
  assert (El : last ps 0 = a + Z.of_nat n') by apply zrange_from_last.
  unfold frs. rewrite split_frames_eq, El, Ebp.
  destruct (pairs_tile (break_periods bp' (zrange_from (a + 1) n')) a (a + Z.of_nat n' + 1)) as [T P].
  { replace (a + Z.of_nat n' + 1) with (a + 1 + Z.of_nat n') by lia. apply break_periods_sorted; [exact L' | lia]. }
  repeat split.
  - rewrite map_map.
    erewrite map_ext; [| intros sn; unfold frame_cover; simpl;
                        replace (snd sn - 1 + 1) with (snd sn) by lia; reflexivity].
    rewrite T. unfold ps, zrange. f_equal. lia.
  - rewrite map_map. apply pairs_fst.
  - rewrite Forall_map. rewrite Forall_forall. intros sn Hin. simpl.
    rewrite Forall_forall in P. specialize (P sn Hin).
    assert (Hs : In (fst sn) (break_periods (true :: bp') ps)).
    { rewrite Ebp, <- (pairs_fst _ (a + Z.of_nat n' + 1)). apply in_map. exact Hin. }
    apply (break_periods_In (S n') a (true :: bp') (fst sn)) in Hs; [| simpl; congruence].
    destruct Hs as [H1 H2]. repeat split; try lia. exact H2.
  - rewrite map_map. simpl. rewrite pairs_fst. reflexivity.
Qed.

Lemma map2_orb_length : forall a b n, length a = n -> length b = n -> length (map2 orb a b) = n.
Proof.
  induction a; intros b n Ha Hb; destruct b; simpl in *; try lia.
  destruct n; [lia |]. f_equal. apply IHa; lia.
Qed.

Lemma map2_orb_nth : forall a b k, length a = length b ->
  nth k (map2 orb a b) false = nth k a false || nth k b false.
Proof.
  induction a; intros b k H; destruct b; simpl in *; try lia.
  - destruct k; reflexivity.
  - destruct k; auto.
Qed.

Lemma col_any_fold : forall n rows acc,
  length acc = n -> Forall (fun r => length r = n) rows ->
  length (fold_left (fun acc r => map2 orb acc r) rows acc) = n
  /\ forall k, nth k (fold_left (fun acc r => map2 orb acc r) rows acc) false
               = nth k acc false || existsb (fun r => nth k r false) rows.
Proof.
  induction rows as [| r rows IH]; intros acc Ha HF; simpl.
  - split; auto. intros. rewrite orb_false_r. reflexivity.
  - inversion HF as [| ? ? Hr HF']; subst.
    destruct (IH (map2 orb acc r)) as [L N]; auto.
    { apply map2_orb_length; auto. }
    split; auto. intros k. rewrite N, map2_orb_nth by lia. rewrite orb_assoc. reflexivity.
Qed.

(* _update_break_points: a column becomes a break point when it already is one or some row has a finite non-zero
   value (a set flag, for the plan register) there *)
Theorem update_break_points_spec : forall V (nz : V -> bool) bp arr,
  Forall (fun r => length r = length bp) arr ->
  length (update_break_points nz bp arr) = length bp
  /\ forall k, nth k (update_break_points nz bp arr) false
               = nth k bp false || existsb (fun r => nth k (map nz r) false) arr.
Proof.
  intros V nz bp arr HF. unfold update_break_points, col_any.
  destruct (col_any_fold (length bp) (map (map nz) arr) (repeat false (length bp))) as [L N].
  { apply repeat_length. }
  { rewrite Forall_map. eapply Forall_impl; [| exact HF]. intros r Hr. simpl. rewrite map_length. exact Hr. }
  split.
  - apply map2_orb_length; auto.
  - intros k. rewrite map2_orb_nth by lia. rewrite N, nth_repeat. simpl.
    f_equal. clear. induction arr; simpl; auto. rewrite IHarr. reflexivity.
Qed.

(* an update keeps the length of the vector and its first entry set *)
Lemma update_break_points_wf : forall V (nz : V -> bool) n bp arr,
  Forall (fun r => length r = n) arr -> length bp = n /\ hd false bp = true ->
  length (update_break_points nz bp arr) = n /\ hd false (update_break_points nz bp arr) = true.
Proof.
  intros V nz n bp arr HF [L H]. subst n. destruct (update_break_points_spec V nz bp arr HF) as [L' N].
  split; [exact L' |]. specialize (N 0%nat). destruct bp; [discriminate |]. simpl in H. subst.
  destruct (update_break_points nz _ arr); [discriminate | exact N].
Qed.

Lemma break_periods_all : forall n a, break_periods (all_break_points n) (zrange_from a n) = zrange_from a n.
Proof.
  induction n; intros. reflexivity.
  change (all_break_points (S n)) with (true :: all_break_points n).
  change (zrange_from a (S n)) with (a :: zrange_from (a + 1) n).
  rewrite break_periods_cons. f_equal. apply IHn.
Qed.

Lemma pairs_zrange : forall n a,
  pairs (zrange_from a n) (a + Z.of_nat n) = map (fun p => (p, p + 1)) (zrange_from a n).
Proof.
  induction n; intros. reflexivity.
  destruct n.
  - reflexivity.
  - change (zrange_from a (S (S n))) with (a :: (a + 1) :: zrange_from (a + 1 + 1) n).
    rewrite pairs_cons2. simpl map. f_equal.
    change ((a + 1) :: zrange_from (a + 1 + 1) n) with (zrange_from (a + 1) (S n)).
    replace (a + Z.of_nat (S (S n))) with (a + 1 + Z.of_nat (S n)) by lia.
    apply IHn.
Qed.

(* with every break point set each period is a frame of its own, whatever the simulation-end rule *)
Lemma split_frames_all_breaks : forall se n a, (0 < n)%nat ->
  split_frames se (all_break_points n) (zrange_from a n) = map (fun p => mkFrame p p (se p p)) (zrange_from a n).
Proof.
  intros se n a Hn. rewrite split_frames_eq, break_periods_all.
  destruct n as [| n']; [lia |]. rewrite zrange_from_last.
  replace (a + Z.of_nat n' + 1) with (a + Z.of_nat (S n')) by lia.
  rewrite pairs_zrange, map_map. apply map_ext. intros p. simpl.
  replace (p + 1 - 1) with p by lia. reflexivity.
Qed.

Theorem pbp_is_single_period_frames : forall n a, (0 < n)%nat ->
  pbp_frames (zrange_from a n) = map (fun p => mkFrame p p p) (zrange_from a n).
Proof. intros n a Hn. unfold pbp_frames. rewrite zrange_from_length. now apply split_frames_all_breaks. Qed.

Definition slt (a b : spot) : Prop := fst a < fst b \/ (fst a = fst b /\ snd a < snd b).

Lemma spot_eqb_eq : forall a b, spot_eqb a b = true <-> a = b.
Proof.
  intros [a1 a2] [b1 b2]. unfold spot_eqb. simpl. rewrite andb_true_iff, !Z.eqb_eq.
  split; [intros [-> ->]; reflexivity | intros H; inversion H; auto].
Qed.

Lemma spot_eqb_refl : forall a, spot_eqb a a = true.
Proof. intros. apply spot_eqb_eq. reflexivity. Qed.

Lemma spot_ltb_slt : forall a b, spot_ltb a b = true <-> slt a b.
Proof.
  intros [a1 a2] [b1 b2]. unfold spot_ltb, slt. simpl.
  rewrite orb_true_iff, andb_true_iff, !Z.ltb_lt, Z.eqb_eq. tauto.
Qed.

Lemma slt_irrefl : forall a, ~ slt a a.
Proof. intros a [H | [_ H]]; lia. Qed.

Lemma slt_trans : forall a b c, slt a b -> slt b c -> slt a c.
Proof. unfold slt. intros. lia. Qed.

Lemma slt_total : forall a b, slt a b \/ a = b \/ slt b a.
Proof.
  intros [a1 a2] [b1 b2]. unfold slt. simpl.
  destruct (Z.lt_trichotomy a1 b1) as [H | [H | H]]; [left; lia | | right; right; lia].
  destruct (Z.lt_trichotomy a2 b2) as [K | [K | K]]; [left; lia | right; left; congruence | right; right; lia].
Qed.

(* membership computed with a boolean equality that decides Leibniz equality *)
Lemma existsb_eqb_In : forall (A : Type) (eqb : A -> A -> bool), (forall a b, eqb a b = true <-> a = b) ->
  forall x l, (existsb (eqb x) l = true <-> In x l) /\ (existsb (eqb x) l = false <-> ~ In x l).
Proof.
  intros A eqb Heq x l.
  assert (T : existsb (eqb x) l = true <-> In x l).
  { rewrite existsb_exists. split.
    - intros [y [H E]]. apply Heq in E. subst. exact H.
    - intros H. exists x. split; [exact H | apply Heq; reflexivity]. }
  split; [exact T |]. rewrite <- T. destruct (existsb (eqb x) l); split; congruence.
Qed.

Lemma smem_In : forall s l, smem s l = true <-> In s l.
Proof. intros. apply (existsb_eqb_In spot spot_eqb spot_eqb_eq). Qed.

Lemma smem_false : forall s l, smem s l = false <-> ~ In s l.
Proof. intros. apply (existsb_eqb_In spot spot_eqb spot_eqb_eq). Qed.

Lemma zmem_In : forall x l, zmem x l = true <-> In x l.
Proof. intros. apply (existsb_eqb_In Z Z.eqb Z.eqb_eq). Qed.

Lemma zmem_false : forall x l, zmem x l = false <-> ~ In x l.
Proof. intros. apply (existsb_eqb_In Z Z.eqb Z.eqb_eq). Qed.

Lemma sinsert_In : forall s l x, In x (sinsert s l) <-> s = x \/ In x l.
Proof.
  induction l as [| y r IH]; intros x; simpl; [reflexivity |].
  destruct (spot_ltb s y) eqn:L; [reflexivity |].
  destruct (spot_eqb s y) eqn:E; simpl.
  - apply spot_eqb_eq in E. subst y. simpl. tauto.
  - rewrite IH. tauto.
Qed.

Lemma sinsert_sorted : forall s l, StronglySorted slt l -> StronglySorted slt (sinsert s l).
Proof.
  induction l as [| y r IH]; intros S; simpl.
  - constructor; constructor.
  - inversion S as [| ? ? S' Hy]; subst.
    destruct (spot_ltb s y) eqn:L.
    + apply spot_ltb_slt in L. constructor; auto. constructor; auto.
      eapply Forall_impl; [| exact Hy]. intros z Hz. eapply slt_trans; eauto.
    + destruct (spot_eqb s y) eqn:E; auto.
      constructor; auto.
      rewrite Forall_forall. intros z Hz. apply sinsert_In in Hz. destruct Hz as [<- | Hz].
      * destruct (slt_total s y) as [H | [H | H]]; auto.
        -- apply spot_ltb_slt in H. congruence.
        -- subst. rewrite spot_eqb_refl in E. discriminate.
      * rewrite Forall_forall in Hy. auto.
Qed.

Lemma sort_spots_In : forall l x, In x (sort_spots l) <-> In x l.
Proof.
  induction l; intros; simpl. reflexivity.
  rewrite sinsert_In, IHl. reflexivity.
Qed.

Lemma sort_spots_sorted : forall l, StronglySorted slt (sort_spots l).
Proof. induction l; simpl. constructor. apply sinsert_sorted. auto. Qed.

Lemma sorted_NoDup : forall l, StronglySorted slt l -> NoDup l.
Proof.
  induction l; intros S. constructor.
  inversion S as [| ? ? S' H]; subst. constructor; auto.
  intros Hin. rewrite Forall_forall in H. apply (slt_irrefl a). auto.
Qed.

Lemma sort_spots_NoDup : forall l, NoDup (sort_spots l).
Proof. intros. apply sorted_NoDup, sort_spots_sorted. Qed.

Lemma NoDup_app_disj : forall (A : Type) (l1 l2 : list A),
  NoDup l1 -> NoDup l2 -> (forall x, In x l1 -> In x l2 -> False) -> NoDup (l1 ++ l2).
Proof.
  induction l1; intros l2 N1 N2 D; simpl; auto.
  inversion N1; subst. constructor.
  - rewrite in_app_iff. intros [H | H]; [contradiction | eapply D; [left; reflexivity | exact H]].
  - apply IHl1; auto. intros x H1' H2'. eapply D; [right; exact H1' | exact H2'].
Qed.

Theorem swap_spots_In : forall base exog endog s,
  In s (swap_spots base exog endog) <-> (In s base /\ ~ In s exog) \/ In s endog.
Proof.
  intros. unfold swap_spots. rewrite sort_spots_In, in_app_iff, filter_In, negb_true_iff, smem_false. tauto.
Qed.

Theorem swap_spots_sorted : forall base exog endog, StronglySorted slt (swap_spots base exog endog).
Proof. intros. apply sort_spots_sorted. Qed.

(* cardinality: |unknowns| + |exogenized| = |endogenous cells| + |endogenized|, counting each cell once,
   when the exogenized cells are endogenous cells and the endogenized cells are not:
   both sides list, without repetition, the cells that are endogenous or endogenized *)
Theorem swap_spots_length : forall base exog endog,
  NoDup base -> incl exog base -> (forall s, In s endog -> ~ In s base) ->
  (length (swap_spots base exog endog) + length (sort_spots exog))%nat
  = (length base + length (sort_spots endog))%nat.
Proof.
  intros base exog endog ND Hex Hen. rewrite <- !app_length. apply Permutation_length, NoDup_Permutation.
  - apply NoDup_app_disj; [apply sorted_NoDup, swap_spots_sorted | apply sort_spots_NoDup |].
    intros x Hs Hx. rewrite swap_spots_In in Hs. rewrite sort_spots_In in Hx.
    destruct Hs as [[_ Hs] | Hs]; [exact (Hs Hx) | exact (Hen x Hs (Hex x Hx))].
  - apply NoDup_app_disj; [exact ND | apply sort_spots_NoDup |].
    intros x Hb Hn. rewrite sort_spots_In in Hn. exact (Hen x Hn Hb).
  - intros x. rewrite !in_app_iff, swap_spots_In, !sort_spots_In.
    destruct (smem x exog) eqn:E; [apply smem_In in E; assert (Hb := Hex x E) | apply smem_false in E]; tauto.
Qed.

Lemma base_spots_In : forall cols qids q c, In (q, c) (base_spots cols qids) <-> In c cols /\ In q qids.
Proof.
  intros. unfold base_spots. rewrite in_flat_map. split.
  - intros [c' [Hc Hin]]. apply in_map_iff in Hin. destruct Hin as [q' [E Hq]]. inversion E; subst. auto.
  - intros [Hc Hq]. exists c. split; auto. apply in_map_iff. exists q. auto.
Qed.

Lemma base_spots_length : forall cols qids, length (base_spots cols qids) = (length cols * length qids)%nat.
Proof.
  intros cols qids. unfold base_spots. induction cols; [reflexivity |].
  cbn [flat_map]. rewrite app_length, map_length.
  etransitivity; [apply f_equal; exact IHcols | reflexivity].
Qed.

Lemma base_spots_NoDup : forall cols qids, NoDup cols -> NoDup qids -> NoDup (base_spots cols qids).
Proof.
  induction cols as [| c cols IH]; intros qids Nc Nq; simpl. constructor.
  inversion Nc; subst. apply NoDup_app_disj.
  - apply FinFun.Injective_map_NoDup; auto. intros x y E. inversion E; auto.
  - apply IH; auto.
  - intros [q' c'] H1' H2'. apply in_map_iff in H1'. destruct H1' as [q0 [E _]]. inversion E; subst.
    fold (base_spots cols qids) in H2'. apply base_spots_In in H2'. tauto.
Qed.

(* the unknown cells of a frame:  endogenous x columns  minus exogenized  plus endogenized *)
Theorem wrt_spots_algebra : forall p cols qids,
  let base := base_spots cols qids in
  let exog := exogenized_spots p cols in
  let endog := endogenized_spots p cols in
  let wrt := wrt_spots (Some p) cols qids in
  (forall s, In s wrt <-> (In s base /\ ~ In s exog) \/ In s endog)
  /\ StronglySorted slt wrt /\ NoDup wrt
  /\ (NoDup cols -> NoDup qids -> incl exog base -> (forall s, In s endog -> ~ In s base) ->
      forall neq, length qids = neq ->
      (length wrt = (neq * length cols)%nat <-> length (sort_spots exog) = length (sort_spots endog))).
Proof.
  intros. unfold wrt, wrt_spots. fold base exog endog.
  split; [intros s; apply swap_spots_In |].
  split; [apply swap_spots_sorted |].
  split; [apply sorted_NoDup, swap_spots_sorted |].
  intros Nc Nq Hex Hen neq <-.
  assert (L := swap_spots_length base exog endog (base_spots_NoDup _ _ Nc Nq) Hex Hen).
  unfold base in L at 2. rewrite base_spots_length in L. lia.
Qed.

Section DataLemmas.
Context {V : Type}.
Variable dflt : V.

Lemma mapi_from_length : forall A B (f : Z -> A -> B) l i, length (mapi_from f i l) = length l.
Proof. induction l; intros; simpl; auto. Qed.

Lemma nth_mapi_from : forall A B (f : Z -> A -> B) l i k da db, (k < length l)%nat ->
  nth k (mapi_from f i l) db = f (i + Z.of_nat k) (nth k l da).
Proof.
  induction l; intros i k da db H; simpl in *. lia.
  destruct k.
  - f_equal. lia.
  - rewrite (IHl (i + 1) k da db) by lia. f_equal. lia.
Qed.

Lemma nth_mapi_from_out : forall A B (f : Z -> A -> B) l i k db, (length l <= k)%nat ->
  nth k (mapi_from f i l) db = db.
Proof. intros. apply nth_overflow. rewrite mapi_from_length. auto. Qed.

(* (q, c) addresses a cell of the array *)
Definition inb (d : list (list V)) (q c : Z) : bool :=
  (0 <=? q) && (0 <=? c) && (Z.to_nat q <? length d)%nat && (Z.to_nat c <? length (nth (Z.to_nat q) d []))%nat.

Lemma get_out : forall d q c, inb d q c = false -> get dflt d q c = dflt.
Proof.
  intros d q c H. unfold get, inb in *.
  destruct (Z.ltb_spec q 0); simpl; auto. destruct (Z.ltb_spec c 0); simpl; auto.
  destruct (Z.leb_spec 0 q); [| lia]. destruct (Z.leb_spec 0 c); [| lia]. simpl in H.
  destruct (Nat.ltb_spec (Z.to_nat q) (length d)); simpl in H.
  - destruct (Nat.ltb_spec (Z.to_nat c) (length (nth (Z.to_nat q) d []))); [discriminate |].
    apply nth_overflow. auto.
  - rewrite (nth_overflow d) by auto. destruct (Z.to_nat c); reflexivity.
Qed.

Lemma inb_true : forall d q c, inb d q c = true ->
  0 <= q /\ 0 <= c /\ (Z.to_nat q < length d)%nat /\ (Z.to_nat c < length (nth (Z.to_nat q) d []))%nat.
Proof.
  intros d q c H. unfold inb in H. rewrite !andb_true_iff in H. destruct H as [[[Hq Hc] Lq] Lc].
  apply Z.leb_le in Hq, Hc. apply Nat.ltb_lt in Lq, Lc. auto.
Qed.

Lemma inb_mapi2 : forall f d q c, inb (mapi2 f d) q c = inb d q c.
Proof.
  intros. unfold inb, mapi2. rewrite mapi_from_length.
  destruct (Nat.ltb_spec (Z.to_nat q) (length d)).
  - rewrite (nth_mapi_from _ _ _ d 0 (Z.to_nat q) [] []) by auto. rewrite mapi_from_length. reflexivity.
  - rewrite nth_mapi_from_out by auto. rewrite (nth_overflow d) by auto. reflexivity.
Qed.

Lemma get_mapi2 : forall f d q c,
  get dflt (mapi2 f d) q c = if inb d q c then f q c (get dflt d q c) else dflt.
Proof.
  intros f d q c. destruct (inb d q c) eqn:E.
  - apply inb_true in E. destruct E as (Hq & Hc & Lq & Lc). unfold get, mapi2.
    rewrite (proj2 (Z.ltb_ge q 0) Hq), (proj2 (Z.ltb_ge c 0) Hc). simpl.
    rewrite (nth_mapi_from _ _ _ d 0 (Z.to_nat q) [] []) by exact Lq.
    rewrite (nth_mapi_from _ _ _ _ 0 (Z.to_nat c) dflt dflt) by exact Lc. f_equal; lia.
  - apply get_out. rewrite inb_mapi2. exact E.
Qed.

(* every update of the model has this shape: the cells selected by [g] receive [h], the others keep their value;
   out of range nothing is stored, and [get] answers [dflt] before and after *)
Lemma get_mapi2_if : forall (g : Z -> Z -> bool) (h : Z -> Z -> V) d q c,
  get dflt (mapi2 (fun q c v => if g q c then h q c else v) d) q c
  = if g q c && inb d q c then h q c else get dflt d q c.
Proof.
  intros. rewrite get_mapi2. destruct (inb d q c) eqn:E.
  - rewrite andb_true_r. reflexivity.
  - rewrite andb_false_r. symmetry. apply get_out. exact E.
Qed.

Theorem prune_spec : forall zero uq fcp f d q c,
  get dflt (prune zero uq fcp f d) q c =
  if negb (f_start f =? f_sim_end f) && zmem q uq && (f_first fcp f + 1 <=? c) && inb d q c
  then zero else get dflt d q c.
Proof.
  intros. unfold prune, prune_skipped.
  destruct (f_start f =? f_sim_end f); simpl; auto.
  rewrite (get_mapi2_if (fun q c => zmem q uq && in_slice (f_zero_slice fcp f) c) (fun _ _ => zero)).
  unfold in_slice, f_zero_slice, fr_zero_unanticipated_slice, f_first. simpl.
  rewrite andb_true_r. reflexivity.
Qed.

Lemma inb_prune : forall zero uq fcp f d q c, inb (prune zero uq fcp f d) q c = inb d q c.
Proof. intros. unfold prune. destruct (prune_skipped _ _ _); [reflexivity | apply inb_mapi2]. Qed.

Theorem write_back_spec : forall uq fcp f main fdata q c,
  get dflt (write_back dflt uq fcp f main fdata) q c =
  if written_back uq fcp f q c && inb main q c then get dflt fdata q c else get dflt main q c.
Proof. intros. exact (get_mapi2_if (written_back uq fcp f) (get dflt fdata) main q c). Qed.

(* which cells a write-back may touch: regular rows on the columns first..last of the frame,
   unanticipated-shock rows on the first column only *)
Lemma written_back_columns : forall uq fcp f q c,
  written_back uq fcp f q c = true ->
  f_first fcp f <= c <= f_last fcp f \/ (zmem q uq = true /\ c = f_first fcp f).
Proof.
  intros uq fcp f q c. unfold written_back.
  destruct (zmem q uq).
  - rewrite Z.eqb_eq. auto.
  - unfold in_slice, f_slice, fr_slice, f_first, f_last. simpl.
    rewrite andb_true_iff, Z.leb_le, Z.ltb_lt. lia.
Qed.

Lemma written_back_outside : forall uq fcp f q c,
  f_first fcp f <= f_last fcp f -> (c < f_first fcp f \/ f_last fcp f < c) -> written_back uq fcp f q c = false.
Proof.
  intros uq fcp f q c Hf Hc. destruct (written_back uq fcp f q c) eqn:E; [| reflexivity].
  apply written_back_columns in E. lia.
Qed.

(* cells outside the frame slice are unchanged by the write-back *)
Theorem writeback_frame : forall uq fcp f main fdata q c,
  f_first fcp f <= f_last fcp f ->
  (c < f_first fcp f \/ f_last fcp f < c) ->
  get dflt (write_back dflt uq fcp f main fdata) q c = get dflt main q c.
Proof. intros. rewrite write_back_spec, written_back_outside by assumption. reflexivity. Qed.

Lemma frame_after_spec : forall pre oracle wrt term q c,
  get dflt (frame_after dflt pre oracle wrt term) q c =
  if touched wrt term q c && inb pre q c then get dflt oracle q c else get dflt pre q c.
Proof. intros. exact (get_mapi2_if (touched wrt term) (get dflt oracle) pre q c). Qed.

Theorem frame_after_untouched : forall pre oracle wrt term q c,
  touched wrt term q c = false ->
  get dflt (frame_after dflt pre oracle wrt term) q c = get dflt pre q c.
Proof. intros. rewrite frame_after_spec, H. reflexivity. Qed.

Theorem frame_after_touched : forall pre oracle wrt term q c,
  touched wrt term q c = true -> inb pre q c = true ->
  get dflt (frame_after dflt pre oracle wrt term) q c = get dflt oracle q c.
Proof. intros. rewrite frame_after_spec, H, H0. reflexivity. Qed.

Lemma copy_exogenized_spec : forall d input exog q c,
  get dflt (copy_exogenized dflt d input exog) q c =
  if smem (q, c) exog && inb d q c then get dflt input q c else get dflt d q c.
Proof. intros. exact (get_mapi2_if (fun q c => smem (q, c) exog) (get dflt input) d q c). Qed.

(* an exogenized cell that the solver does not own carries its input value after the frame is simulated *)
Theorem exogenized_untouched : forall zero S input main f oracle q c,
  In (q, c) (frame_exog S f) ->
  touched (frame_wrt S f) (frame_term S f) q c = false ->
  inb main q c = true ->
  get dflt (fst (step_frame dflt zero S input main f oracle)) q c = get dflt input q c.
Proof.
  intros. unfold step_frame. simpl.
  rewrite frame_after_untouched by auto.
  apply smem_In in H. rewrite copy_exogenized_spec, inb_prune, H, H1. reflexivity.
Qed.

(* the frame loop leaves a cell alone when, in every frame, either the write-back does not address it or the frame
   neither prunes it (not an unanticipated-shock row), nor exogenizes it, nor hands it to the solver *)
Theorem step_frame_kept : forall zero S input main f oracle q c,
  written_back (s_uqids S) (s_fcp S) f q c = false \/
  (zmem q (s_uqids S) = false /\ touched (frame_wrt S f) (frame_term S f) q c = false
   /\ ~ In (q, c) (frame_exog S f)) ->
  get dflt (snd (step_frame dflt zero S input main f oracle)) q c = get dflt main q c.
Proof.
  intros zero S input main f oracle q c H. unfold step_frame. simpl. rewrite write_back_spec.
  destruct H as [H | [Hu [Ht He]]]; [rewrite H; reflexivity |].
  destruct (written_back (s_uqids S) (s_fcp S) f q c && inb main q c); auto.
  rewrite frame_after_untouched by exact Ht. rewrite copy_exogenized_spec.
  apply smem_false in He. rewrite He. simpl.
  rewrite prune_spec, Hu, andb_false_r. reflexivity.
Qed.

Theorem run_frames_kept : forall zero S input frames oracles main q c,
  Forall (fun f => written_back (s_uqids S) (s_fcp S) f q c = false \/
                   (zmem q (s_uqids S) = false /\ touched (frame_wrt S f) (frame_term S f) q c = false
                    /\ ~ In (q, c) (frame_exog S f))) frames ->
  get dflt (snd (run_frames dflt zero S input main frames oracles)) q c = get dflt main q c.
Proof.
  induction frames as [| f fs IH]; intros oracles main q c HF; simpl; auto.
  destruct oracles as [| o os]; simpl; auto.
  inversion HF as [| ? ? Hf HF']; subst.
  rewrite IH by exact HF'. apply step_frame_kept. exact Hf.
Qed.

Lemma get_set_cell : forall d s v q c,
  get dflt (set_cell d s v) q c = if spot_eqb (q, c) s && inb d q c then v else get dflt d q c.
Proof. intros. exact (get_mapi2_if (fun q c => spot_eqb (q, c) s) (fun _ _ => v) d q c). Qed.

Lemma inb_update_cells : forall spots vals d q c, inb (update_cells d spots vals) q c = inb d q c.
Proof.
  induction spots; intros; simpl; auto. destruct vals; auto.
  rewrite IHspots. unfold set_cell. apply inb_mapi2.
Qed.

(* writing a guess touches the unknown cells only *)
Theorem update_cells_outside : forall spots vals d q c,
  ~ In (q, c) spots -> get dflt (update_cells d spots vals) q c = get dflt d q c.
Proof.
  induction spots as [| s ss IH]; intros vals d q c Hn; simpl; auto.
  destruct vals as [| v vs]; auto.
  rewrite IH by (intros H; apply Hn; right; auto).
  rewrite get_set_cell. destruct (spot_eqb (q, c) s) eqn:E; auto.
  apply spot_eqb_eq in E. subst. exfalso. apply Hn. left. reflexivity.
Qed.

End DataLemmas.

Lemma index_last_from_spec : forall s l i acc r,
  index_last_from s l i acc = Some r ->
  (acc = Some r /\ ~ In s l) \/ (i <= r < i + Z.of_nat (length l) /\ nth (Z.to_nat (r - i)) l (r, r) = s).
Proof.
  induction l as [| x l IH]; intros i acc r H; simpl in *.
  - left. split; auto.
  - apply IH in H. destruct H as [[H1 H2] | [H1 H2]].
    + destruct (spot_eqb s x) eqn:E.
      * inversion H1; subst. apply spot_eqb_eq in E. subst. right. split; [lia |].
        replace (r - r) with 0 by lia. reflexivity.
      * left. split; auto. intros [K | K]; [| contradiction].
        subst. rewrite spot_eqb_refl in E. discriminate.
    + right. split; [lia |].
      replace (Z.to_nat (r - i)) with (S (Z.to_nat (r - (i + 1)))) by lia. exact H2.
Qed.

Lemma In_enumerate_from : forall A (l : list A) i k x,
  In (k, x) (enumerate_from i l) -> exists n, nth_error l n = Some x /\ k = i + Z.of_nat n.
Proof.
  induction l; intros i k x H; simpl in H. contradiction.
  destruct H as [H | H].
  - inversion H; subst. exists 0%nat. split; [reflexivity | lia].
  - apply IHl in H. destruct H as [n [H1 H2]]. exists (S n). split; [exact H1 | lia].
Qed.

(* every entry of the Jacobian map sits in the stacked row of (its equation, its column index) -- the same row as
   the residual of that equation in that column -- and in the column of the unknown Token(qid, shift + column) *)
Theorem jac_map_from_spec : forall neq wrt_tokens e0 off cols lhs r c rr rc,
  In (r, c, rr, rc) (jac_map_from neq e0 off wrt_tokens cols lhs) ->
  exists de toks tok col,
    nth_error wrt_tokens de = Some toks /\ In tok toks /\ nth_error cols (Z.to_nat rc) = Some col /\ 0 <= rc
    /\ r = stack_index neq (e0 + Z.of_nat de) rc
    /\ index_last (fst tok, snd tok + col) lhs = Some c.
Proof.
  induction wrt_tokens as [| toks rest IH]; intros e0 off cols lhs r c rr rc H; cbn [jac_map_from] in H. contradiction.
  apply in_app_or in H. destruct H as [H | H].
  - apply in_flat_map in H. destruct H as [[k tok] [Hk H]].
    apply in_flat_map in H. destruct H as [[j col] [Hj H]].
    cbn [fst snd] in H. destruct (index_last (fst tok, snd tok + col) lhs) eqn:I; [| contradiction].
    destruct H as [H | []]. injection H as <- <- <- <-.
    apply In_enumerate_from in Hk. destruct Hk as [n [Hn _]].
    apply In_enumerate_from in Hj. destruct Hj as [m [Hm ->]].
    exists 0%nat, toks, tok, col. rewrite Z.add_0_l, Nat2Z.id, Z.add_0_r.
    repeat split; [exact (nth_error_In _ _ Hn) | exact Hm | lia | exact I].
  - apply IH in H. destruct H as [de [toks' [tok [col [H1 [H2 [H3 [H4 [H5 H6]]]]]]]]].
    exists (S de), toks', tok, col. repeat split; auto.
    rewrite H5. f_equal. lia.
Qed.

Lemma stack_index_spec : forall neq e j, stack_index neq e j = e + neq * j.
Proof. intros. unfold stack_index, jac_lhs_row. ring. Qed.

Lemma stack_length : forall V (F : nat -> nat -> V) neq ncols, length (stack F neq ncols) = (neq * ncols)%nat.
Proof.
  intros. unfold stack. destruct stack_equation_fastest; rewrite map_length, seq_length; reflexivity.
Qed.

Lemma nth_map_lt : forall A B (f : A -> B) l k d d', (k < length l)%nat -> nth k (map f l) d = f (nth k l d').
Proof. intros. rewrite (nth_indep _ d (f d')) by (rewrite map_length; assumption). apply map_nth. Qed.

(* position e + neq*j, read back as (equation, column index) the way [stack] does *)
Lemma stack_position : forall (e j neq : nat), (e < neq)%nat ->
  ((e + neq * j) mod neq = e /\ (e + neq * j) / neq = j)%nat.
Proof.
  intros e j neq He. rewrite Nat.mul_comm. split.
  - rewrite Nat.mod_add by lia. apply Nat.mod_small. exact He.
  - rewrite Nat.div_add by lia. rewrite Nat.div_small by exact He. reflexivity.
Qed.

(* the stacked residual carries equation e at column index j at position e + neq*j
   (the order regenerated from _evaluators.py: flatten(order="F") of the equations x columns array) *)
Theorem stack_nth : forall V (F : nat -> nat -> V) neq ncols e j d,
  (e < neq)%nat -> (j < ncols)%nat ->
  nth (e + neq * j) (stack F neq ncols) d = F e j.
Proof.
  intros V F neq ncols e j d He Hj. unfold stack.
  change stack_equation_fastest with true. cbv iota.
  assert (Hlt : (e + neq * j < neq * ncols)%nat) by nia.
  rewrite (nth_map_lt _ _ _ _ _ d 0%nat) by (rewrite seq_length; exact Hlt).
  rewrite seq_nth by exact Hlt. simpl.
  destruct (stack_position e j neq He) as [-> ->]. reflexivity.
Qed.

Lemma stack_In : forall V (F : nat -> nat -> V) neq ncols x,
  In x (stack F neq ncols) <-> exists e j, (e < neq)%nat /\ (j < ncols)%nat /\ x = F e j.
Proof.
  intros V F neq ncols x. unfold stack. change stack_equation_fastest with true. cbv iota.
  rewrite in_map_iff. split.
  - intros [i [E Hi]]. apply in_seq in Hi.
    destruct neq as [| n']; [simpl in Hi; lia |].
    exists (i mod S n')%nat, (i / S n')%nat. repeat split; auto.
    + apply Nat.mod_upper_bound. lia.
    + apply Nat.div_lt_upper_bound; lia.
  - intros [e [j [He [Hj E]]]]. exists (e + neq * j)%nat. split.
    + destruct (stack_position e j neq He) as [-> ->]. auto.
    + apply in_seq. nia.
Qed.

Open Scope R_scope.

(* max-norm (norm_order = inf) *)
Definition max_norm (l : list R) : R := fold_right (fun x m => Rmax (Rabs x) m) 0 l.

Lemma max_norm_lt : forall l tol, 0 < tol -> (max_norm l < tol <-> Forall (fun x => Rabs x < tol) l).
Proof.
  induction l; intros tol Ht; simpl.
  - split; [constructor | auto].
  - split.
    + intros H. assert (H1 := Rmax_l (Rabs a) (max_norm l)). assert (H2 := Rmax_r (Rabs a) (max_norm l)).
      constructor; [lra |]. apply IHl; auto. lra.
    + intros H. inversion H; subst. apply Rmax_lub_lt; auto. apply IHl; auto.
Qed.

(* the solver's success test on the stacked vector holds iff every equation in every column passes it *)
Theorem stacked_norm_iff_each : forall (F : nat -> nat -> R) neq ncols tol, 0 < tol ->
  (max_norm (stack F neq ncols) < tol <->
   forall e j, (e < neq)%nat -> (j < ncols)%nat -> Rabs (F e j) < tol).
Proof.
  intros F neq ncols tol Ht. rewrite max_norm_lt by auto. rewrite Forall_forall. split.
  - intros H e j He Hj. apply H. apply stack_In. exists e, j. auto.
  - intros H x Hx. apply stack_In in Hx. destruct Hx as [e [j [He [Hj ->]]]]. auto.
Qed.

Definition darr := Z -> Z -> R.

(* first position of a cell among the unknowns *)
Fixpoint index_of (s : spot) (l : list spot) : option nat :=
  match l with
  | [] => None
  | x :: r => if spot_eqb s x then Some 0%nat else option_map S (index_of s r)
  end.

(* evaluator.update: the guess x is written on the unknown cells, everything else is the frame's data *)
Definition upd (D : darr) (spots : list spot) (x : nat -> R) : darr :=
  fun q c => match index_of (q, c) spots with Some k => x k | None => D q c end.

Lemma index_of_spec : forall s l,
  match index_of s l with
  | Some k => (k < length l)%nat /\ nth k l (0%Z, 0%Z) = s
  | None => ~ In s l
  end.
Proof.
  induction l; simpl. tauto.
  destruct (spot_eqb s a) eqn:E.
  - apply spot_eqb_eq in E. split; [lia | auto].
  - destruct (index_of s l); simpl.
    + destruct IHl. split; [lia | assumption].
    + intros [-> | H]; [rewrite spot_eqb_refl in E; discriminate | exact (IHl H)].
Qed.

(* a cell reads the component of the guess at its position among the unknowns, or the data if it is not one of them;
   which of the two, and the position, depend on the list of unknowns only *)
Lemma upd_cases : forall spots q c,
  (exists k, (k < length spots)%nat /\ @nth spot k spots (0%Z, 0%Z) = (q, c) /\ forall D x, upd D spots x q c = x k)
  \/ (~ In (q, c) spots /\ forall D x, upd D spots x q c = D q c).
Proof.
  intros. unfold upd. assert (I := index_of_spec (q, c) spots). destruct (index_of (q, c) spots).
  - left. exists n. destruct I. auto.
  - right. auto.
Qed.

Lemma upd_outside : forall D spots x q c, ~ In (q, c) spots -> upd D spots x q c = D q c.
Proof.
  intros D spots x q c H. destruct (upd_cases spots q c) as [[k [Hk [E _]]] | [_ U]]; [| apply U].
  exfalso. apply H. rewrite <- E. apply nth_In, Hk.
Qed.

(* an equation evaluated at a column of a data array; the terminal operator in force rewrites the array
   before the equations read it (identity for terminal="data") *)
Definition equation := darr -> Z -> R.

Definition residual (eqs : list equation) (term : darr -> darr) (cols : list Z)
           (D : darr) (spots : list spot) (x : nat -> R) : nat -> nat -> R :=
  fun e j => nth e eqs (fun _ _ => 0) (term (upd D spots x)) (nth j cols 0%Z).

Definition stacked_residual eqs term cols D spots x : list R :=
  stack (residual eqs term cols D spots x) (length eqs) (length cols).

(* success of the max-norm test = every transition equation in every simulated column is within tolerance,
   evaluated on the frame's data with the unknown cells replaced by the solution and with the cells beyond the
   last simulated column as produced by the terminal operator in force *)
Theorem stacked_zero_iff_all_zero : forall eqs term cols D spots x tol, 0 < tol ->
  (max_norm (stacked_residual eqs term cols D spots x) < tol <->
   forall e j, (e < length eqs)%nat -> (j < length cols)%nat ->
     Rabs (nth e eqs (fun _ _ => 0) (term (upd D spots x)) (nth j cols 0%Z)) < tol).
Proof. intros. unfold stacked_residual. apply stacked_norm_iff_each. auto. Qed.

(* terminal="data": the cells beyond the last column are whatever the frame's data hold *)
Definition term_data : darr -> darr := fun D => D.

(* weighted sum of absolute cells *)
Definition abs_comb (w : list (spot * R)) (A : darr) : R :=
  fold_right (fun t acc => snd t * A (fst (fst t)) (snd (fst t)) + acc) 0 w.

(* terminal="first_order": the cells (q, c), q a current-dated solution variable, c a terminal column, hold the
   first-order continuation, an affine function (rows of [T;TT;...] and [K;TK+K;...]: C01) of the cells
   Token(qid, last + shift) of the solution vector; every other cell is untouched *)
Record affine_terminal := mkAffTerm {
  at_cell : Z -> Z -> bool;
  at_weights : Z -> Z -> list (spot * R);
  at_const : Z -> Z -> R }.

Definition term_affine (T : affine_terminal) : darr -> darr :=
  fun A q c => if at_cell T q c then abs_comb (at_weights T q c) A + at_const T q c else A q c.
Definition term_linear (T : affine_terminal) : darr -> darr :=
  fun A q c => if at_cell T q c then abs_comb (at_weights T q c) A else A q c.

Definition data_terminal : affine_terminal := mkAffTerm (fun _ _ => false) (fun _ _ => []) (fun _ _ => 0).

Lemma term_affine_data : forall A q c, term_affine data_terminal A q c = term_data A q c.
Proof. reflexivity. Qed.

(* the model's first-order terminal cells: current-dated solution rows x terminal columns *)
Definition fo_cells (qids : list Z) (last max_lead : Z) : Z -> Z -> bool :=
  fun q c => zmem q qids && zmem c (terminal_columns last max_lead).

Definition dsub (A B : darr) : darr := fun q c => A q c - B q c.

Lemma abs_comb_sub : forall w A B, abs_comb w A - abs_comb w B = abs_comb w (dsub A B).
Proof. induction w; simpl; intros. lra. rewrite <- IHw. unfold dsub. lra. Qed.

Lemma abs_comb_ext : forall w A B, (forall q c, A q c = B q c) -> abs_comb w A = abs_comb w B.
Proof. induction w; simpl; intros; auto. rewrite H, (IHw A B H). reflexivity. Qed.

Lemma term_affine_sub : forall T A B q c,
  term_affine T A q c - term_affine T B q c = term_linear T (dsub A B) q c.
Proof.
  intros. unfold term_affine, term_linear. destruct (at_cell T q c).
  - rewrite <- abs_comb_sub. lra.
  - reflexivity.
Qed.

(* sum of coef * A(q, t + shift) + constant; shocks, exogenous variables and parameters are rows of A as well *)
Definition lin_comb (terms : list (spot * R)) (A : darr) (t : Z) : R :=
  fold_right (fun tm acc => snd tm * A (fst (fst tm)) (t + snd (fst tm))%Z + acc) 0 terms.

Definition affine_equation := (list (spot * R) * R)%type.
Definition eval_affine (e : affine_equation) : equation := fun A t => lin_comb (fst e) A t + snd e.

(* an affine equation reads the array as a weighted sum of cells does, at the columns shifted by t *)
Lemma lin_comb_sub : forall terms A B t, lin_comb terms A t - lin_comb terms B t = lin_comb terms (dsub A B) t.
Proof. intros. exact (abs_comb_sub terms (fun q c => A q (t + c)%Z) (fun q c => B q (t + c)%Z)). Qed.

Lemma lin_comb_ext : forall terms A B t, (forall q c, A q c = B q c) -> lin_comb terms A t = lin_comb terms B t.
Proof.
  intros terms A B t H.
  exact (abs_comb_ext terms (fun q c => A q (t + c)%Z) (fun q c => B q (t + c)%Z) (fun q c => H q (t + c)%Z)).
Qed.

Section LinearAgrees.

Variable aeqs : list affine_equation.
Variable T : affine_terminal.
Variable cols : list Z.
Variable spots : list spot.
Variable D : darr.                  (* the frame's data: initial conditions, shocks, exogenous, terminal data *)

Let eqs : list equation := map eval_affine aeqs.
Let neq := length aeqs.

Definition zero_arr : darr := fun _ _ => 0.

(* linear part of the stacked system (the stacked Jacobian as a linear map on the unknowns) *)
Definition stacked_linear (dx : nat -> R) : nat -> nat -> R :=
  fun e j => lin_comb (fst (nth e aeqs ([], 0))) (term_linear T (upd zero_arr spots dx)) (nth j cols 0%Z).

Lemma nth_eqs : forall e A t, (e < neq)%nat ->
  nth e eqs (fun _ _ => 0) A t = eval_affine (nth e aeqs ([], 0)) A t.
Proof.
  intros. unfold eqs. rewrite (nth_map_lt _ _ eval_affine aeqs e _ ([], 0)) by exact H. reflexivity.
Qed.

Lemma upd_sub : forall x y q c,
  dsub (upd D spots x) (upd D spots y) q c = upd zero_arr spots (fun k => x k - y k) q c.
Proof.
  intros. unfold dsub, zero_arr. destruct (upd_cases spots q c) as [[k [_ [_ U]]] | [_ U]]; rewrite !U; lra.
Qed.

(* the stacked system of affine equations with an affine terminal operator is affine in the unknowns *)
Lemma residual_affine : forall x y e j, (e < neq)%nat ->
  residual eqs (term_affine T) cols D spots x e j - residual eqs (term_affine T) cols D spots y e j
  = stacked_linear (fun k => x k - y k) e j.
Proof.
  intros. unfold residual, stacked_linear. rewrite !nth_eqs by auto. unfold eval_affine.
  match goal with |- ?a + ?c - (?b + ?c) = _ => replace (a + c - (b + c)) with (a - b) by lra end.
  rewrite lin_comb_sub. apply lin_comb_ext. intros q c.
  unfold dsub at 1. rewrite term_affine_sub.
  unfold term_linear. destruct (at_cell T q c).
  - apply abs_comb_ext. intros. apply upd_sub.
  - apply upd_sub.
Qed.

(* the first-order path, as a data array on the frame's columns and beyond *)
Variable P : darr.

(* contract (C01): the first-order path satisfies every model equation in every simulated column, with the leads
   beyond the last column read through the terminal operator (its own first-order continuation) *)
Hypothesis P_solves : forall e j, (e < neq)%nat -> (j < length cols)%nat ->
  eval_affine (nth e aeqs ([], 0)) (term_affine T P) (nth j cols 0%Z) = 0.

(* same inputs: off the unknown cells the path carries the frame's data *)
Hypothesis P_inputs : forall q c, ~ In (q, c) spots -> P q c = D q c.

Definition x_first_order : nat -> R := fun k => P (fst (nth k spots (0%Z, 0%Z))) (snd (nth k spots (0%Z, 0%Z))).

Lemma upd_first_order : forall q c, upd D spots x_first_order q c = P q c.
Proof.
  intros. destruct (upd_cases spots q c) as [[k [_ [E U]]] | [N U]]; rewrite U.
  - unfold x_first_order. rewrite E. reflexivity.
  - symmetry. apply P_inputs, N.
Qed.

(* (a) the first-order path is a zero of the stacked system *)
Theorem first_order_is_zero : forall e j, (e < neq)%nat -> (j < length cols)%nat ->
  residual eqs (term_affine T) cols D spots x_first_order e j = 0.
Proof.
  intros. unfold residual. rewrite nth_eqs by auto.
  etransitivity; [| exact (P_solves e j H H0)]. unfold eval_affine. f_equal.
  apply lin_comb_ext. intros q c. unfold term_affine. destruct (at_cell T q c).
  - f_equal. apply abs_comb_ext. apply upd_first_order.
  - apply upd_first_order.
Qed.

(* (b) it is the only zero when the stacked Jacobian is non-singular, so the results coincide *)
Hypothesis jacobian_nonsingular : forall dx : nat -> R,
  (forall e j, (e < neq)%nat -> (j < length cols)%nat -> stacked_linear dx e j = 0) ->
  forall k, (k < length spots)%nat -> dx k = 0.

Theorem linear_agrees : forall x,
  (forall e j, (e < neq)%nat -> (j < length cols)%nat ->
     residual eqs (term_affine T) cols D spots x e j = 0) ->
  (forall k, (k < length spots)%nat -> x k = x_first_order k)
  /\ (forall q c, upd D spots x q c = P q c).
Proof.
  intros x Hx.
  assert (K : forall k, (k < length spots)%nat -> x k = x_first_order k).
  { intros k Hk. apply Rminus_diag_uniq.
    apply (jacobian_nonsingular (fun k => x k - x_first_order k)); [| exact Hk].
    intros e j He Hj. rewrite <- residual_affine by exact He.
    rewrite (Hx e j He Hj), (first_order_is_zero e j He Hj). lra. }
  split; auto.
  intros q c. rewrite <- upd_first_order.
  destruct (upd_cases spots q c) as [[k [Hk [_ U]]] | [_ U]]; rewrite !U; auto.
Qed.

End LinearAgrees.

(* x_t = (1/4) x_{t+1} + e_t on one simulated column (column 1), first-order terminal x_{T+1} = 0 * x_T:
   the hypotheses of [linear_agrees] are met (C06_linear_agrees_hypotheses_satisfiable) *)
Definition ex_aeqs : list affine_equation :=
  [([((0, 0)%Z, -1); ((0, 1)%Z, 1 / 4); ((1, 0)%Z, 1)], 0)].
Definition ex_T : affine_terminal :=
  mkAffTerm (fun q c => (q =? 0)%Z && (c =? 2)%Z) (fun _ _ => [((0, 1)%Z, 0)]) (fun _ _ => 0).
Definition ex_P : darr := fun q c => if ((q =? 0) && (c =? 1))%Z then 3 else if ((q =? 1) && (c =? 1))%Z then 3 else 0.
Definition ex_D : darr := fun q c => if ((q =? 1) && (c =? 1))%Z then 3 else 0.
