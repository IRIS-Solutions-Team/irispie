(* C01  Discrete part (plain Coq): eigenvalue classification / Blanchard-Kahn verdict over the generated
   predicates of gen/FordGen.v, and the dynamic identities built from the token vector. *)
From Coq Require Import List ZArith QArith Qabs Lia Lqa.
From Verif Require Import gen.FordGen model.Ford.
Import ListNotations.

Lemma Qltb_lt x y : Qltb x y = true <-> (x < y)%Q.
Proof.
  unfold Qltb. rewrite negb_true_iff. split; intro H.
  - apply Qnot_le_lt. intro L. apply Qle_bool_iff in L. congruence.
  - destruct (Qle_bool y x) eqn:E; auto. apply Qle_bool_iff in E. exfalso. apply (Qlt_not_le _ _ H E).
Qed.
Lemma Qleb_le x y : Qleb x y = true <-> (x <= y)%Q.
Proof. unfold Qleb. apply Qle_bool_iff. Qed.
Lemma Qgeb_ge x y : Qgeb x y = true <-> (y <= x)%Q.
Proof. unfold Qgeb. apply Qleb_le. Qed.
Lemma Qltb_false x y : Qltb x y = false <-> (y <= x)%Q.
Proof.
  split; intro H.
  - destruct (Qlt_le_dec x y) as [L|L]; auto. apply Qltb_lt in L. congruence.
  - destruct (Qltb x y) eqn:E; auto. apply Qltb_lt in E. exfalso. apply (Qlt_not_le _ _ E H).
Qed.

Lemma Qabs_idem x : Qabs (Qabs x) = Qabs x.
Proof. destruct x as [n d]. unfold Qabs. f_equal. apply Z.abs_involutive. Qed.

Section Classes.
Variable tol : Q.
Hypothesis tol_nonneg : (0 <= tol)%Q.
Notation classify := (classify_eigenvalue_stability (is_stable_root tol) (is_unit_root tol)).

(* the class of x, as a condition on |x| *)
Lemma classify_spec x :
  match classify x with
  | E_STABLE => (Qabs x < 1 - tol)%Q
  | E_UNIT_ROOT => (1 - tol <= Qabs x /\ Qabs x < 1 + tol)%Q
  | E_UNSTABLE => (1 + tol <= Qabs x)%Q
  end.
Proof.
  unfold classify_eigenvalue_stability, is_stable_root, is_unit_root. rewrite !Qabs_idem.
  destruct (Qltb (Qabs x) (1 - tol)) eqn:E1; [apply Qltb_lt; exact E1|]. apply Qltb_false in E1.
  rewrite (proj2 (Qgeb_ge _ _) E1). simpl.
  destruct (Qltb (Qabs x) (1 + tol)) eqn:E3; [apply Qltb_lt in E3; tauto | apply Qltb_false; exact E3].
Qed.

(* the three conditions exclude one another because tol >= 0 *)
Lemma stable_iff x : classify x = E_STABLE <-> (Qabs x < 1 - tol)%Q.
Proof. generalize (classify_spec x). destruct (classify x); split; intros; try discriminate; try reflexivity; lra. Qed.

Lemma unit_iff x : classify x = E_UNIT_ROOT <-> (1 - tol <= Qabs x /\ Qabs x < 1 + tol)%Q.
Proof. generalize (classify_spec x). destruct (classify x); split; intros; try discriminate; try reflexivity; lra. Qed.

Lemma unstable_iff x : classify x = E_UNSTABLE <-> (1 + tol <= Qabs x)%Q.
Proof. generalize (classify_spec x). destruct (classify x); split; intros; try discriminate; try reflexivity; lra. Qed.

(* the ordering predicate handed to the QZ oracle selects exactly the roots -beta/alpha that are not
   classified unstable: the two thresholds agree *)
Theorem qz_sort_consistent alpha beta : ~ (alpha == 0)%Q ->
  is_alpha_beta_stable_or_unit_root tol alpha beta = true <-> classify (- beta / alpha) <> E_UNSTABLE.
Proof.
  intro nz.
  assert (apos : (0 < Qabs alpha)%Q).
  { destruct (Qlt_le_dec 0 (Qabs alpha)) as [H|H]; auto. exfalso. apply nz.
    assert (H0 : (Qabs alpha == 0)%Q) by (apply Qle_antisym; [exact H | apply Qabs_nonneg]).
    destruct (Qlt_le_dec alpha 0) as [L|L].
    - rewrite Qabs_neg in H0 by lra. lra.
    - rewrite Qabs_pos in H0 by lra. lra. }
  assert (E : (Qabs (- beta / alpha) == Qabs beta / Qabs alpha)%Q).
  { unfold Qdiv. rewrite Qabs_Qmult, Qabs_opp, Qabs_Qinv. reflexivity. }
  unfold is_alpha_beta_stable_or_unit_root. rewrite Qltb_lt.
  split.
  - intros H U. apply unstable_iff in U. rewrite E in U.
    assert (Qabs beta / Qabs alpha < 1 + tol)%Q.
    { apply Qlt_shift_div_r; auto. }
    lra.
  - intro NU. destruct (Qlt_le_dec (Qabs beta) ((1 + tol) * Qabs alpha)) as [L|L]; auto.
    exfalso. apply NU. apply unstable_iff. rewrite E. apply Qle_shift_div_l; auto.
Qed.

End Classes.

Lemma count_kinds_total (ks : list ekind) :
  (count_kind E_STABLE ks + count_kind E_UNIT_ROOT ks + count_kind E_UNSTABLE ks = length ks)%nat.
Proof.
  unfold count_kind. induction ks as [|k ks IH]; simpl; auto.
  destruct k; simpl; lia.
Qed.

Lemma count_unstable_spec tol (l : list Q) :
  count_kind E_UNSTABLE (classify_eigenvalues_stability tol l)
  = length (filter (fun x => match classify_eigenvalue_stability (is_stable_root tol) (is_unit_root tol) x with
                             | E_UNSTABLE => true | _ => false end) l).
Proof.
  unfold count_kind, classify_eigenvalues_stability. induction l as [|x l IH]; simpl; auto.
  destruct (classify_eigenvalue_stability _ _ x); simpl; auto.
Qed.

(* STABLE iff the number of unstable roots equals the number of forward-looking variables;
   otherwise NO_STABLE (too many) or MULTIPLE_STABLE (too few) *)
Theorem verdict_iff_count (ks : list ekind) (nf : nat) :
  (classify_system_stability ks nf = S_STABLE <-> count_kind E_UNSTABLE ks = nf) /\
  (classify_system_stability ks nf = S_NO_STABLE <-> (count_kind E_UNSTABLE ks > nf)%nat) /\
  (classify_system_stability ks nf = S_MULTIPLE_STABLE <-> (count_kind E_UNSTABLE ks < nf)%nat).
Proof.
  unfold classify_system_stability, ngtb.
  destruct (Nat.eqb_spec (count_kind E_UNSTABLE ks) nf) as [e|ne].
  - repeat split; intros; try discriminate; try lia; auto.
  - destruct (Nat.ltb_spec nf (count_kind E_UNSTABLE ks)) as [l|l].
    + repeat split; intros; try discriminate; try lia; auto.
    + repeat split; intros; try discriminate; try lia; auto.
Qed.

(* Dynamic identities built from the token vector (_create_dynid_matrices) *)

Lemma tok_eqb_eq (a b : token) : tok_eqb a b = true <-> a = b.
Proof.
  unfold tok_eqb. destruct a as [qa ka], b as [qb kb]; simpl. rewrite andb_true_iff, Nat.eqb_eq, Z.eqb_eq.
  split; [intros [-> ->]; reflexivity | intro H; inversion H; auto].
Qed.

Lemma index_tok_some t l j : index_tok t l = Some j -> nth_error l j = Some t.
Proof.
  revert j. induction l as [|x l IH]; simpl; intros j H; [discriminate|].
  destruct (tok_eqb t x) eqn:E.
  - inversion H; subst. apply tok_eqb_eq in E. subst. reflexivity.
  - destruct (index_tok t l) as [j'|]; simpl in H; [|discriminate]. inversion H; subst. simpl. apply IH. reflexivity.
Qed.

Lemma index_tok_none t l : index_tok t l = None -> ~ In t l.
Proof.
  induction l as [|x l IH]; simpl; intros H; [tauto|].
  destruct (tok_eqb t x) eqn:E; [discriminate|].
  destruct (index_tok t l); simpl in H; [discriminate|].
  intros [->|I]; [|apply IH; auto].
  assert (tok_eqb t t = true) by (apply tok_eqb_eq; reflexivity). congruence.
Qed.

Lemma index_tok_in t l : In t l -> exists j, index_tok t l = Some j.
Proof.
  intro I. destruct (index_tok t l) eqn:E; [eauto|]. exfalso. apply (index_tok_none _ _ E I).
Qed.

(* a row of the dynamic identities: token (q,k) at position i is not at the maximum shift of q,
   and position j holds the same quantity one period later *)
Definition dynid_pair_ok (vec : list token) (p : nat * nat) : Prop :=
  exists q k, nth_error vec (fst p) = Some (q, k) /\ k <> max_shift q vec /\
              nth_error vec (snd p) = Some (q, dynid_next_shift k).

(* positions (in order) of the tokens that are not at their quantity's maximum shift *)
Fixpoint nonmax_positions (vec rest : list token) (i : nat) : list nat :=
  match rest with
  | [] => []
  | t :: r => if (snd t =? max_shift (fst t) vec)%Z then nonmax_positions vec r (S i)
              else i :: nonmax_positions vec r (S i)
  end.

Lemma dynid_pairs_from_spec vec rest : forall pre i ps,
  vec = pre ++ rest -> length pre = i -> dynid_pairs_from vec rest i = Some ps ->
  Forall (dynid_pair_ok vec) ps /\ map fst ps = nonmax_positions vec rest i.
Proof.
  induction rest as [|t r IH]; intros pre i ps Hv Hl H; simpl in *.
  - inversion H; subst. split; constructor.
  - assert (Hv' : vec = (pre ++ [t]) ++ r) by (rewrite <- app_assoc; exact Hv).
    assert (Hl' : length (pre ++ [t]) = S i) by (rewrite app_length; simpl; lia).
    destruct (snd t =? max_shift (fst t) vec)%Z eqn:E.
    + apply (IH _ _ _ Hv' Hl' H).
    + destruct (index_tok (fst t, dynid_next_shift (snd t)) vec) as [j|] eqn:Ej; [|discriminate].
      destruct (dynid_pairs_from vec r (S i)) as [ps'|] eqn:Er; [|discriminate].
      inversion H; subst ps. destruct (IH _ _ _ Hv' Hl' Er) as [F M].
      split; [constructor; auto | simpl; f_equal; auto].
      exists (fst t), (snd t). simpl. repeat split.
      * rewrite Hv. rewrite nth_error_app2 by lia. rewrite Hl, Nat.sub_diag. destruct t; reflexivity.
      * apply Z.eqb_neq. exact E.
      * apply index_tok_some. exact Ej.
Qed.

(* dense rows as the code writes them, applied to integer vectors *)
Definition dotZ (a b : list Z) : Z := fold_left (fun acc p => (acc + fst p * snd p)%Z) (combine a b) 0%Z.

Lemma fold_dot_acc (l : list (Z * Z)) (z : Z) :
  fold_left (fun acc p => (acc + fst p * snd p)%Z) l z = (z + fold_left (fun acc p => (acc + fst p * snd p)%Z) l 0)%Z.
Proof.
  revert z. induction l as [|p l IH]; intro z; simpl; [lia|].
  rewrite IH. rewrite (IH (fst p * snd p)%Z). lia.
Qed.

Lemma dot_unit_seq (v : Z) (i : nat) : forall (n s : nat) (x : list Z), length x = n ->
  dotZ (map (fun c => if Nat.eqb c i then v else 0%Z) (seq s n)) x
  = if (s <=? i)%nat && (i <? s + n)%nat then (v * nth (i - s) x 0)%Z else 0%Z.
Proof.
  unfold dotZ. induction n as [|n IH]; intros s x Hx.
  - cbn [seq map combine fold_left]. destruct (s <=? i)%nat eqn:A; cbn [andb]; auto.
    destruct (Nat.ltb_spec i (s + 0)); auto. apply Nat.leb_le in A. lia.
  - destruct x as [|x0 x]; [discriminate|]. cbn [length] in Hx. injection Hx as Hx.
    cbn [seq map combine fold_left fst snd].
    rewrite fold_dot_acc. rewrite (IH (S s) x Hx).
    destruct (Nat.eqb_spec s i) as [e|ne].
    + subst i. rewrite Nat.leb_refl. cbn [andb].
      destruct (Nat.leb_spec (S s) s); [lia|]. cbn [andb].
      destruct (Nat.ltb_spec s (s + S n)); [|lia]. rewrite Nat.sub_diag. cbn [nth]. lia.
    + destruct (Nat.leb_spec s i), (Nat.leb_spec (S s) i); cbn [andb]; try lia.
      destruct (Nat.ltb_spec i (S s + n)), (Nat.ltb_spec i (s + S n)); try lia.
      replace (i - s)%nat with (S (i - S s)) by lia. cbn [nth]. lia.
Qed.

Lemma dot_unit_row n i v x : length x = n -> (i < n)%nat -> dotZ (unit_row n i v) x = (v * nth i x 0)%Z.
Proof.
  intros Hx Hi. unfold unit_row. rewrite (dot_unit_seq v i n 0 x Hx). cbn [Nat.leb andb Nat.add].
  destruct (Nat.ltb_spec i n); [|lia]. rewrite Nat.sub_0_r. reflexivity.
Qed.

(* when _create_dynid_matrices succeeds, there is exactly one row per token that is not
   at its quantity's maximum shift, in vector order; row r pairs position i (token (q,k)) with position j
   (token (q,k+1)); and as linear forms  dynid_A[r] . x + dynid_B[r] . y = x[i] - y[j]: the identity
   "x{k} today equals x{k+1} of the previous period's vector" *)
Theorem dynid_rows vec ps : dynid_pairs vec = Some ps ->
  map fst ps = nonmax_positions vec vec 0 /\
  Forall (dynid_pair_ok vec) ps /\
  forall r i j (x y : list Z), nth_error ps r = Some (i, j) ->
    length x = length vec -> length y = length vec ->
    (dotZ (nth r (dynid_A vec ps) []) x + dotZ (nth r (dynid_B vec ps) []) y = nth i x 0 - nth j y 0)%Z.
Proof.
  intro H. destruct (dynid_pairs_from_spec vec vec [] 0 ps eq_refl eq_refl H) as [F M].
  split; [exact M|]. split; [exact F|].
  intros r i j x y Hr Hx Hy.
  assert (Hp : dynid_pair_ok vec (i, j)).
  { rewrite Forall_forall in F. apply F. eapply nth_error_In; eauto. }
  destruct Hp as (q & k & Hi & _ & Hj). simpl in Hi, Hj.
  assert (Li : (i < length vec)%nat) by (apply nth_error_Some; congruence).
  assert (Lj : (j < length vec)%nat) by (apply nth_error_Some; congruence).
  unfold dynid_A, dynid_B.
  assert (EA : nth r (map (fun p => unit_row (length vec) (fst p) dynid_A_entry) ps) [] = unit_row (length vec) i dynid_A_entry).
  { apply nth_error_nth. rewrite nth_error_map, Hr. reflexivity. }
  assert (EB : nth r (map (fun p => unit_row (length vec) (snd p) dynid_B_entry) ps) [] = unit_row (length vec) j dynid_B_entry).
  { apply nth_error_nth. rewrite nth_error_map, Hr. reflexivity. }
  rewrite EA, EB, (dot_unit_row _ _ _ _ Hx Li), (dot_unit_row _ _ _ _ Hy Lj).
  unfold dynid_A_entry, dynid_B_entry. lia.
Qed.

(* The system vector is closed under "one period later, up to the maximum lead", so the list.index
   call of _create_dynid_matrices never fails: for EVERY set of tokens the dynamic identities exist *)

Lemma in_zrange a b k : In k (zrange a b) <-> (a <= k < b)%Z.
Proof.
  unfold zrange. rewrite in_map_iff. split.
  - intros (i & <- & Hi). apply in_seq in Hi. lia.
  - intros H. exists (Z.to_nat (k - a)). split; [lia|]. apply in_seq. lia.
Qed.

Lemma in_dedup_nat x l : In x (dedup_nat l) <-> In x l.
Proof.
  induction l as [|y l IH]; simpl; [tauto|].
  destruct (existsb (Nat.eqb y) l) eqn:E.
  - rewrite IH. split; [tauto|]. intros [->|H]; auto.
    apply existsb_exists in E. destruct E as (z & Hz & Ez). apply Nat.eqb_eq in Ez. subst. exact Hz.
  - simpl. rewrite IH. tauto.
Qed.

Lemma in_shifts_of q k l : In k (shifts_of q l) <-> In (q, k) l.
Proof.
  unfold shifts_of. rewrite in_map_iff. split.
  - intros ([q' k'] & <- & H). apply filter_In in H. destruct H as [H E]. simpl in E. apply Nat.eqb_eq in E. subst. exact H.
  - intro H. exists (q, k). split; auto. apply filter_In. split; auto. simpl. apply Nat.eqb_refl.
Qed.

Lemma fold_max_ge (l : list Z) (x : Z) : (x <= fold_left Z.max l x)%Z /\ forall y, In y l -> (y <= fold_left Z.max l x)%Z.
Proof.
  revert x. induction l as [|z l IH]; intro x; simpl; [split; [lia | tauto]|].
  destruct (IH (Z.max x z)) as [A B]. split; [lia|]. intros y [->|H]; [lia | auto].
Qed.

Lemma fold_max_in (l : list Z) (x : Z) : fold_left Z.max l x = x \/ In (fold_left Z.max l x) l.
Proof.
  revert x. induction l as [|z l IH]; intro x; simpl; [auto|].
  destruct (IH (Z.max x z)) as [E|H]; [|auto].
  rewrite E. destruct (Z.max_spec x z) as [[_ ->]|[_ ->]]; auto.
Qed.

Lemma max_list_spec d l : l <> [] -> In (max_list d l) l /\ forall y, In y l -> (y <= max_list d l)%Z.
Proof.
  destruct l as [|x l]; [congruence|]. intros _. simpl.
  destruct (fold_max_ge l x) as [A B]. split.
  - destruct (fold_max_in l x) as [E|H]; [left; auto | right; auto].
  - intros y [<-|H]; auto.
Qed.

Lemma in_insert_tok t t' l : In t' (insert_tok t l) <-> t = t' \/ In t' l.
Proof.
  induction l as [|x l IH]; simpl; [tauto|].
  destruct (key_leb t x); simpl; [tauto|]. rewrite IH. tauto.
Qed.

Lemma in_sort_tokens t l : In t (sort_tokens l) <-> In t l.
Proof.
  unfold sort_tokens. induction l as [|x l IH]; simpl; [tauto|].
  rewrite in_insert_tok, IH. tauto.
Qed.

Lemma in_create_vector toks q k :
  In (q, k) (create_system_transition_vector toks) <->
  In q (map fst toks) /\
  (system_range_lo (system_min_shift_floor (min_shift q toks)) <= k < system_range_hi (max_shift q toks))%Z.
Proof.
  unfold create_system_transition_vector. rewrite in_flat_map. split.
  - intros (q' & Hq & H). apply in_map_iff in H. destruct H as (k' & E & Hk). inversion E; subst.
    apply (proj1 (in_dedup_nat _ _)) in Hq. apply (proj1 (in_zrange _ _ _)) in Hk. split; [exact Hq | exact Hk].
  - intros [Hq Hk]. exists q. split; [apply (proj2 (in_dedup_nat _ _)); exact Hq|]. apply in_map_iff. exists k. split; [reflexivity|]. apply (proj2 (in_zrange _ _ _)). exact Hk.
Qed.

Lemma dynid_pairs_from_total vec rest : forall i,
  (forall t, In t rest -> snd t <> max_shift (fst t) vec -> In (fst t, dynid_next_shift (snd t)) vec) ->
  exists ps, dynid_pairs_from vec rest i = Some ps.
Proof.
  induction rest as [|t r IH]; intros i H; simpl; [eauto|].
  destruct (IH (S i)) as [ps Hps]; [intros; apply H; simpl; auto|].
  destruct (snd t =? max_shift (fst t) vec)%Z eqn:E; [eauto|].
  apply Z.eqb_neq in E.
  destruct (index_tok_in _ _ (H t (or_introl eq_refl) E)) as [j Hj].
  rewrite Hj, Hps. eauto.
Qed.

Theorem system_vector_dynid_total (actual meas : list token) :
  exists ps, dynid_pairs (system_vector actual meas) = Some ps.
Proof.
  unfold dynid_pairs. apply dynid_pairs_from_total.
  set (toks := adjust_for_measurement actual meas).
  set (vec := system_vector actual meas).
  intros [q k] Hin Hmax. simpl in *.
  assert (Hcv : forall q' k', In (q', k') vec <-> In (q', k') (create_system_transition_vector toks)).
  { intros. unfold vec, system_vector. apply in_sort_tokens. }
  apply Hcv in Hin. apply in_create_vector in Hin. destruct Hin as [Hq [Hlo Hhi]].
  unfold system_range_hi in *.
  (* the maximum shift of q inside the vector is the top of its range *)
  assert (Htop : In (q, max_shift q toks) vec).
  { apply Hcv. apply in_create_vector. split; auto. unfold system_range_hi. lia. }
  assert (Hne : shifts_of q vec <> []).
  { intro E. apply in_shifts_of in Htop. rewrite E in Htop. destruct Htop. }
  destruct (max_list_spec 0%Z _ Hne) as [Min Mub]. fold (max_shift q vec) in Min, Mub.
  assert (Mle : (max_shift q vec < max_shift q toks + 1)%Z).
  { apply in_shifts_of in Min. apply Hcv in Min. apply in_create_vector in Min. unfold system_range_hi in Min. lia. }
  assert (Mge : (max_shift q toks <= max_shift q vec)%Z) by (apply Mub; apply in_shifts_of; exact Htop).
  apply Hcv. apply in_create_vector. split; auto. unfold dynid_next_shift, system_range_hi. lia.
Qed.
