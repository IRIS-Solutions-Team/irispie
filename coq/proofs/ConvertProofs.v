(* C12: aggregation groups, missing rules, placement and round trips on the Series model. *)
From Coq Require Import ZArith List Bool Lia Reals Lra.
From Verif Require Import lib.Arith model.Series model.SeriesOps model.Convert proofs.SeriesProofs.
Import ListNotations.
Open Scope Z_scope.

Section ConvertProofs.
Variable A : Arith.
Notation V := (car A).
Notation series := (series A).
Hypothesis miss_law : forall x : V, is_miss A x = true -> x = miss A.
Variable X : ArithExt A.

Lemma agg_row_length m sel disc nv rows : length (agg_row A X m sel disc nv rows) = nv.
Proof. unfold agg_row. now rewrite map_length, seq_length. Qed.

(* aggregation: the value of low period l is the method applied to exactly its group *)
Theorem aggregate_spec m sel disc f_tgt (s r : series) st en l :
  WF A s -> s_start s = Some st -> s_end A s = Some en ->
  f_tgt <> s_freq s -> f_tgt <= s_freq s ->
  aggregate_regular A X m sel disc f_tgt s = Ok r ->
  row_at A r l =
    if (st / s_freq s * f_tgt <=? l) && (l <=? (en / s_freq s + 1) * f_tgt - 1)
    then agg_row A X m sel disc (s_nv s) (group_rows A s (s_freq s / f_tgt) l)
    else missrow A (s_nv s).
Proof.
  intros Hwf Es Ee Hne Hle. unfold aggregate_regular. rewrite Es, Ee.
  destruct (Z.eqb_spec f_tgt (s_freq s)); [contradiction|].
  destruct (Z.ltb_spec (s_freq s) f_tgt); [lia|].
  intros Hr. injection Hr as <-. rewrite row_at_build; [reflexivity|assumption|].
  intros u. apply agg_row_length.
Qed.

Lemma fold_absorb (f : V -> V -> V) (w : list V) acc :
  (forall x, f (miss A) x = miss A) -> (forall x, f x (miss A) = miss A) ->
  (acc = miss A \/ In (miss A) w) -> fold_left f w acc = miss A.
Proof.
  intros Hl Hr H. apply (fold_left_absorb (fun x => x = miss A)); [now intros x y ->..|].
  destruct H; [now left|right; now exists (miss A)].
Qed.

(* disaggregation: placement *)
Theorem disaggregate_spec d f_tgt (s r : series) st en h :
  WF A s -> s_start s = Some st -> s_end A s = Some en ->
  f_tgt <> s_freq s -> s_freq s <= f_tgt ->
  disaggregate_regular A d f_tgt s = Ok r ->
  row_at A r h =
    if (st * (f_tgt / s_freq s) <=? h) && (h <=? (en + 1) * (f_tgt / s_freq s) - 1)
    then (if dis_keep d (f_tgt / s_freq s) (h mod (f_tgt / s_freq s)) then row_at A s (h / (f_tgt / s_freq s))
          else missrow A (s_nv s))
    else missrow A (s_nv s).
Proof.
  intros Hwf Es Ee Hne Hle. unfold disaggregate_regular. rewrite Es, Ee.
  destruct (Z.eqb_spec f_tgt (s_freq s)); [contradiction|].
  destruct (Z.ltb_spec f_tgt (s_freq s)); [lia|].
  intros Hr. injection Hr as <-. rewrite row_at_build; [reflexivity|assumption|].
  intros u. destruct (dis_keep _ _ _); [now apply row_at_length|apply missrow_length].
Qed.

Lemma disaggregate_WF d f_tgt (s r : series) : WF A s -> disaggregate_regular A d f_tgt s = Ok r ->
  WF A r /\ s_nv r = s_nv s /\ (s_start r <> None -> s_freq r = f_tgt).
Proof.
  intros Hwf. unfold disaggregate_regular.
  destruct (s_start s); [|discriminate]. destruct (s_end A s); [|discriminate].
  destruct (Z.eqb_spec f_tgt (s_freq s)); [intros [= <-]; split; [assumption|split; [reflexivity|now intros _]]|].
  destruct (f_tgt <? s_freq s); [discriminate|].
  intros [= <-]. split; [|split; [apply build_nv|apply build_freq]].
  apply build_WF; [assumption|]. intros u. destruct (dis_keep _ _ _); [now apply row_at_length|apply missrow_length].
Qed.

(* flat disaggregation seen as a map: every high period carries the value of the low period containing it *)
Lemma flat_is_containing (f_tgt : Z) (s r : series) st en h :
  WF A s -> s_start s = Some st -> s_end A s = Some en ->
  f_tgt <> s_freq s -> s_freq s <= f_tgt -> 0 < f_tgt / s_freq s ->
  disaggregate_regular A DisFlat f_tgt s = Ok r ->
  row_at A r h = row_at A s (h / (f_tgt / s_freq s)).
Proof.
  intros Hwf Es Ee Hne Hle Hpos Hr.
  rewrite (disaggregate_spec DisFlat f_tgt s r st en h) by assumption. simpl.
  destruct (andb _ _) eqn:E; [reflexivity|].
  symmetry. eapply row_at_outside; eauto.
  assert (E' : h < st * (f_tgt / s_freq s) \/ (en + 1) * (f_tgt / s_freq s) <= h) by lia.
  destruct E'; [left; apply Z.div_lt_upper_bound|right; apply Z.le_succ_l, Z.div_le_lower_bound]; lia.
Qed.

(* round trip: aggregating a flat disaggregation returns the original map *)
Definition idempotent_on_constant (m : agg_method) : Prop :=
  forall (v : V) (n : nat), agg_value A X m (repeat v (S n)) = v.

Lemma fold_same (f : V -> V -> V) v n : f v v = v -> fold_left f (repeat v n) v = v.
Proof. intros H. induction n as [|n IH]; simpl; [reflexivity|]. now rewrite H. Qed.

Lemma first_idem : idempotent_on_constant AggFirst.
Proof. intros v n. reflexivity. Qed.
Lemma last_idem : idempotent_on_constant AggLast.
Proof.
  intros v n. change (last (repeat v (S n)) v = v). induction n as [|n IH]; [reflexivity|].
  change (repeat v (S (S n))) with (v :: repeat v (S n)). simpl in *. exact IH.
Qed.
Lemma min_idem : idempotent_on_constant AggMin.
Proof. intros v n. simpl. apply fold_same. now destruct (x_ltb A X v v). Qed.
Lemma max_idem : idempotent_on_constant AggMax.
Proof. intros v n. simpl. apply fold_same. now destruct (x_ltb A X v v). Qed.

(* the methods that select a member *)
Lemma selecting_idem m : m = AggFirst \/ m = AggLast \/ m = AggMin \/ m = AggMax -> idempotent_on_constant m.
Proof. intros [->|[->|[->| ->]]]; [apply first_idem|apply last_idem|apply min_idem|apply max_idem]. Qed.

Lemma col_of_repeat (r : list V) n c : col_of A (repeat r n) c = repeat (nth c r (miss A)) n.
Proof. unfold col_of. induction n; simpl; [reflexivity|now f_equal]. Qed.

(* a coarse period l outside those that meet the fine periods lo..hi starts (at l * k) outside lo..hi *)
Lemma coarse_outside fs k lo hi l : 0 < fs -> 0 < k ->
  l < lo / (fs * k) * fs \/ (hi / (fs * k) + 1) * fs <= l -> l * k < lo \/ hi < l * k.
Proof.
  intros Hfs Hk E. pose proof (Z.mul_div_le lo (fs * k)). pose proof (Z.mul_succ_div_gt hi (fs * k)). nia.
Qed.

Lemma group_rows_flat (d : series) factor (g : Z -> list V) l : 0 < factor ->
  (forall h, row_at A d h = g (h / factor)) -> group_rows A d factor l = repeat (g l) (Z.to_nat factor).
Proof.
  intros Hf Hd. unfold group_rows. rewrite <- (seq_length (Z.to_nat factor) 0) at 2. rewrite <- map_const_repeat.
  apply map_ext_in. intros j Hj%in_seq. rewrite Hd, Z.div_add_l, Z.div_small by lia. f_equal. lia.
Qed.

Lemma agg_row_repeat m (row : list V) k : idempotent_on_constant m ->
  agg_row A X m None false (length row) (repeat row (S k)) = row.
Proof.
  intros Hm. apply map_seq_nth with (d := miss A). intros c _. rewrite col_of_repeat. apply Hm.
Qed.

Theorem roundtrip_flat m f_hi (s d r : series) :
  idempotent_on_constant m ->
  WF A s -> 0 < s_freq s -> s_freq s < f_hi -> f_hi = s_freq s * (f_hi / s_freq s) ->
  disaggregate_regular A DisFlat f_hi s = Ok d ->
  aggregate_regular A X m None false (s_freq s) d = Ok r ->
  forall l, row_at A r l = row_at A s l.
Proof.
  intros Hm Hwf Hf Hlt Hdiv Hd Hr l.
  destruct (s_start s) as [st|] eqn:Es; [|unfold disaggregate_regular in Hd; rewrite Es in Hd; discriminate].
  assert (Hfac : 0 < f_hi / s_freq s) by nia.
  assert (Hdrow : forall h, row_at A d h = row_at A s (h / (f_hi / s_freq s))).
  { intros h. eapply flat_is_containing; eauto using s_end_some; lia. }
  destruct (disaggregate_WF DisFlat f_hi s d Hwf Hd) as (Hwd & Hnvd & Hfd).
  destruct (s_start d) as [sd|] eqn:Esd; [|unfold aggregate_regular in Hr; rewrite Esd in Hr; discriminate].
  specialize (Hfd ltac:(discriminate)).
  pose proof (s_end_some A d sd Esd) as Eed.
  rewrite (aggregate_spec m None false (s_freq s) d r sd _ l Hwd Esd Eed) by (assumption || lia).
  rewrite Hfd, Hnvd, <- (row_at_length A s l Hwf).
  remember (f_hi / s_freq s) as factor. subst f_hi.
  destruct (andb _ _) eqn:E.
  - (* every member of the group of l carries row_at s l *)
    rewrite (group_rows_flat d factor (row_at A s) l Hfac Hdrow).
    replace (Z.to_nat factor) with (S (Z.to_nat factor - 1)) by lia. now apply agg_row_repeat.
  - (* outside the aggregated range the original has no data either: its period l is d's period l * factor *)
    rewrite (row_at_length A s l Hwf), <- Hnvd, <- (Z.div_mul l factor), <- Hdrow by lia. symmetry.
    eapply row_at_outside; eauto.
    apply (coarse_outside (s_freq s)); [assumption..|lia].
Qed.

End ConvertProofs.

(* the mean of n copies of v is v: over the reals *)
Section MeanReals.
Open Scope R_scope.
Lemma fold_add_repeat (v : R) n acc : fold_left Rplus (repeat v n) acc = acc + INR n * v.
Proof.
  revert acc. induction n as [|n IH]; intros acc.
  - simpl. ring.
  - change (repeat v (S n)) with (v :: repeat v n). cbn [fold_left]. rewrite IH, S_INR. ring.
Qed.

Lemma mean_idem (X : ArithExt RArith) : idempotent_on_constant RArith X AggMean.
Proof.
  intros v n. change (fold_left Rplus (repeat v n) v / IZR (Z.of_nat (length (v :: repeat v n))) = v).
  rewrite fold_add_repeat. simpl length. rewrite repeat_length, <- INR_IZR_INZ, S_INR.
  field. pose proof (pos_INR n). lra.
Qed.
End MeanReals.
