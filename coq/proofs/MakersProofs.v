(* C04: the function make_function returns for a request depends on the request alone (text and context), whatever
   was compiled before in the same session. *)
From Coq Require Import String List Bool.
From Verif Require Import gen.MakersGen model.Makers.
Import ListNotations.
Open Scope string_scope.

(* ---- dicts ---- *)
Section DictFacts.
Context {V : Type}.
Implicit Types (d g : dict V) (k n : string).

Lemma dict_get_set_same : forall k (v : V) d, dict_get k (dict_set k v d) = Some v.
Proof.
  intros k v d; induction d as [|[k' v'] r IH]; cbn.
  - now rewrite String.eqb_refl.
  - destruct (String.eqb k k') eqn:E; cbn; rewrite E; auto.
Qed.

Lemma dict_get_set_other : forall k k' (v : V) d, k <> k' -> dict_get k (dict_set k' v d) = dict_get k d.
Proof.
  intros k k' v d Hne; induction d as [|[k2 v2] r IH]; cbn.
  - destruct (String.eqb_spec k k'); [contradiction|reflexivity].
  - destruct (String.eqb_spec k' k2) as [->|N]; cbn.
    + destruct (String.eqb_spec k k2); [contradiction|reflexivity].
    + destruct (String.eqb_spec k k2); auto.
Qed.

Lemma dict_get_notin : forall n d, ~ In n (map fst d) -> dict_get n d = None.
Proof.
  intros n d; induction d as [|[k v] r IH]; cbn; auto.
  intros H. destruct (String.eqb_spec n k) as [->|N]; [exfalso; auto|apply IH; auto].
Qed.

(* d1 | d2 : the entries of d2 win, the others are those of d1 (keys of d2 unique, as in a Python dict) *)
Lemma dict_get_union : forall d2 d1 n, NoDup (map fst d2) ->
  dict_get n (dict_union d1 d2) = match dict_get n d2 with Some v => Some v | None => dict_get n d1 end.
Proof.
  unfold dict_union. induction d2 as [|[k v] r IH]; intros d1 n ND; cbn; auto.
  inversion ND as [|? ? Hk ND']; subst.
  rewrite IH by assumption.
  destruct (String.eqb_spec n k) as [->|N].
  - rewrite (dict_get_notin k r Hk). apply dict_get_set_same.
  - destruct (dict_get n r); auto. now apply dict_get_set_other.
Qed.

Lemma dict_get_fold_set_notin : forall (f : string -> V) names g n, ~ In n names ->
  dict_get n (fold_left (fun d m => dict_set m (f m) d) names g) = dict_get n g.
Proof.
  intros f names; induction names as [|m r IH]; intros g n H; cbn; auto.
  rewrite IH by (intro; apply H; now right).
  apply dict_get_set_other. intro; apply H; now left.
Qed.

Lemma dict_get_fold_set_in : forall (f : string -> V) names g n, In n names ->
  dict_get n (fold_left (fun d m => dict_set m (f m) d) names g) = Some (f n).
Proof.
  intros f names; induction names as [|m r IH]; intros g n H; cbn; [contradiction|].
  destruct (in_dec string_dec n r) as [I|NI]; [now apply IH|].
  destruct H as [->|H]; [|contradiction].
  rewrite dict_get_fold_set_notin by assumption. apply dict_get_set_same.
Qed.
End DictFacts.

Section Proofs.
Variable V : Type.
Variable F : Type.
Variable v_empty_dict : V.
Variable v_adapt : string -> V.
Variable v_fun : F -> V.
Variable exec_def : string -> string -> dict V -> F.

Notation request := (request V).
Notation compile := (compile V F v_empty_dict v_adapt v_fun exec_def).
Notation prepare_globals := (prepare_globals V v_empty_dict v_adapt).
Notation run_keyed := (run_session_keyed V F v_empty_dict v_adapt v_fun exec_def).
Notation run_session := (run_session V F v_empty_dict v_adapt v_fun exec_def).
Notation table := (table V F).

(* every entry of the module-level table is what compiling any request with that key gives *)
Definition table_sound (key : request -> string) (tb : table) : Prop :=
  forall kk res, dict_get kk tb = Some res -> forall r, key r = kk -> compile r = res.

Lemma run_none : forall reqs tb, run_keyed None tb reqs = map compile reqs.
Proof. induction reqs as [|r rs IH]; intros tb; cbn; [reflexivity|now rewrite IH]. Qed.

(* in every session (any number of calls, any order, any contexts) every call returns the
   function, the text and the globals determined by its own request (mk_cache, generated, is CacheNone:
   make_function consults no table) *)
Theorem session_results : forall reqs, run_session reqs = map compile reqs.
Proof. intros reqs. exact (run_none reqs []). Qed.

Theorem session_nth : forall reqs k, nth_error (run_session reqs) k = option_map compile (nth_error reqs k).
Proof. intros; rewrite session_results. apply nth_error_map. Qed.

(* ... it is the text compiled in the globals prepared from ITS OWN context *)
Theorem compiled_in_own_context : forall r,
  rs_func V F (compile r) = exec_def (func_str V r) (rq_name V r) (prepare_globals (rq_ctx V r))
  /\ rs_str V F (compile r) = func_str V r
  /\ rs_globals V F (compile r) = dict_set (rq_name V r) (v_fun (rs_func V F (compile r))) (prepare_globals (rq_ctx V r)).
Proof. intros; repeat split. Qed.

Lemma prepare_globals_shape : forall ctx,
  prepare_globals ctx = fold_left (fun d n => dict_set n (v_adapt n) d) mk_adaptation_names
                                  (dict_set "__builtins__" v_empty_dict (dict_union [] ctx)).
Proof. reflexivity. Qed.

(* a name of the context (a user function) is bound, in the globals of the compiled function, to the object this
   context binds it to -- unless it is the name of a function adaptation, which wins *)
Theorem globals_bind_context_names : forall ctx n, NoDup (map fst ctx) ->
  ~ In n mk_adaptation_names -> n <> "__builtins__" ->
  dict_get n (prepare_globals ctx) = dict_get n ctx.
Proof.
  intros ctx n ND NA NB. rewrite prepare_globals_shape.
  rewrite dict_get_fold_set_notin by assumption.
  rewrite dict_get_set_other by assumption.
  rewrite dict_get_union by assumption. cbn. now destruct (dict_get n ctx).
Qed.

End Proofs.

(* ---- a table keyed by the source text alone is NOT sound: the second of two requests with the same text and
        different contexts gets the function of the first (symbolic instance) ---- *)
Definition refuting_requests : list s_request :=
  [mkReq SV "__equator" ["x"; "t"] "(f(x[(0, t)]) , )" [("f", "<f one>")];
   mkReq SV "__equator" ["x"; "t"] "(f(x[(0, t)]) , )" [("f", "<f two>")]].

(* non-vacuity: a session of three requests, two of them with the same text *)
Example session_example :
  map (fun o => dict_get "f" (snd o)) (s_session (refuting_requests ++ [mkReq SV "g" ["a"] "f(a)" [("log", "<user log>"); ("f", "<f three>")]]))
  = [Some "<f one>"; Some "<f two>"; Some "<f three>"]
  /\ map (fun o => fst (fst o)) (s_session [mkReq SV "g" ["a"; "b"] "f(a)" []]) = ["def g(a, b): return f(a)"]
  /\ map (fun o => dict_get "log" (snd o)) (s_session [mkReq SV "g" ["a"] "f(a)" [("log", "<user log>")]]) = [Some "adapt:log"].
Proof. vm_compute. repeat split. Qed.
