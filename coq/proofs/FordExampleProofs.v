(* C01  Non-vacuity: a concrete determinate model over the rationals (one backward, one forward variable; roots 1/2
   and 2) with which props/C01.v shows that the contracts assumed of the QZ / Schur oracles are satisfiable. *)
From Verif Require Import model.Ford proofs.FordProofs.
From mathcomp Require Import ssreflect ssrfun ssrbool eqtype ssrnat seq choice fintype finfun bigop ssralg matrix rat.
Set Implicit Arguments.
Unset Strict Implicit.
Unset Printing Implicit Defensive.
Import GRing.Theory.
Local Open Scope ring_scope.

Section Example.
Notation F := rat_fieldType.
Notation O := (MCOps F).

Definition exS : 'M[F]_(1 + 1) := 1%:M.
Definition exT : 'M[F]_(1 + 1) := block_mx (- (1 / 2%:R))%:M 0 0 (- 2%:R)%:M.
Definition exQ : 'M[F]_(1 + 1) := 1%:M.
Definition exZ : 'M[F]_(1 + 1, 1 + 1) := block_mx 0 1%:M 1%:M 0.
Definition exA : 'M[F]_(1 + 1, 1 + 1) := exS *m exZ.
Definition exB : 'M[F]_(1 + 1, 1 + 1) := exT *m exZ.
Definition exC : 'cV[F]_(1 + 1) := col_mx 1%:M 1%:M.
Definition exD : 'M[F]_(1 + 1, 1) := col_mx 1%:M 0.
Definition exu : 'M[F]_1 := 1%:M.
Definition exTa : 'M[F]_1 := ts_Tg (@solve_transition O 1 1 1 exS exT exQ exZ exC exD).

Lemma exZZ : exZ *m exZ = 1%:M.
Proof.
rewrite /exZ mulmx_block !mul0mx !mulmx0 !mul1mx !addr0 !add0r.
by rewrite (scalar_mx_block 1 1 1).
Qed.

End Example.
