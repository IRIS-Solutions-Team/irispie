(* C02  Jacobians from algorithmic differentiation equal the true derivatives.
   The lemmas used are in proofs/AldiProofs.v (rules, evaluator, maps) and proofs/AldiSelectProofs.v (for 7 and 8 below).

   atom_* (the differentiation rules on dual numbers (value, diff)), atom_diff, atom_methods, offered, has_rpow
   come from gen/AldiGen.v, regenerated on every run from the text of aldi/differentiators.py (class Atom) and
   aldi/adaptations.py; fd_two_sided from gen/AldiFdGen.v (aldi/finite_differentiators.py).
   RD is Coq's real numbers; [derives F x d] says: fst d = F x and F has derivative snd d at x (Coquelicot).
   eval (model/AldiTree.v) is the evaluator that Context.eval amounts to; den (model/AldiDen.v) is the residual
   of an equation as a real function of the data; adm = inside the domain and away from kinks. *)
From Coq Require Import Reals Lra Lia ZArith List String Bool.
From Coquelicot Require Import Coquelicot.
From Verif Require Import lib.Dual lib.DualR gen.AldiGen gen.AldiFdGen model.AldiTree model.AldiDen model.AldiMaps
     proofs.AldiProofs model.AldiSelect proofs.AldiSelectProofs.
Import ListNotations.
Local Open Scope R_scope.

(* ---- 1. every rule is the true derivative -------------------------------------------------------------- *)

Theorem C02_rules_arithmetic : forall (f g : R -> R) (x f' g' c : R), is_derive f x f' -> is_derive g x g' ->
  derives (fun u => - f u) x (atom_neg RD (f x, f')) /\
  derives f x (atom_pos RD (f x, f')) /\
  derives (fun u => f u + g u) x (atom_add_aa RD (f x, f') (g x, g')) /\
  derives (fun u => f u + c) x (atom_add_ac RD (f x, f') c) /\
  derives (fun u => c + f u) x (atom_radd RD (f x, f') c) /\
  derives (fun u => f u - g u) x (atom_sub_aa RD (f x, f') (g x, g')) /\
  derives (fun u => f u - c) x (atom_sub_ac RD (f x, f') c) /\
  derives (fun u => c - f u) x (atom_rsub RD (f x, f') c) /\
  derives (fun u => f u * g u) x (atom_mul_aa RD (f x, f') (g x, g')) /\
  derives (fun u => f u * c) x (atom_mul_ac RD (f x, f') c) /\
  derives (fun u => c * f u) x (atom_rmul RD (f x, f') c) /\
  derives (fun u => f u / c) x (atom_truediv_ac RD (f x, f') c) /\
  (g x <> 0 -> derives (fun u => f u / g u) x (atom_truediv_aa RD (f x, f') (g x, g'))) /\
  (f x <> 0 -> derives (fun u => c / f u) x (atom_rtruediv RD (f x, f') c)).
Proof.
  intros f g x f' g' c Hf Hg.
  pose proof (fun o => bop_aa_rule o f g x f' g' Hf Hg) as AA.
  pose proof (fun o => bop_ac_rule o f x f' c Hf) as AC.
  pose proof (fun o => bop_ca_rule o c f x f' Hf) as CA.
  split; [ now apply neg_rule | ]. split; [ now apply pos_rule | ].
  split; [ exact (AA BAdd I) | ]. split; [ exact (AC BAdd I) | ]. split; [ exact (CA BAdd I) | ].
  split; [ exact (AA BSub I) | ]. split; [ exact (AC BSub I) | ]. split; [ exact (CA BSub I) | ].
  split; [ exact (AA BMul I) | ]. split; [ exact (AC BMul I) | ]. split; [ exact (CA BMul I) | ].
  split; [ exact (AC BDiv I) | ]. split; [ exact (AA BDiv) | exact (CA BDiv) ].
Qed.
Print Assumptions C02_rules_arithmetic.

(* power: positive base with any exponent (a number or an expression), or a non-zero base with a literal integer *)
Theorem C02_rules_power : forall (f g : R -> R) (x f' g' c : R) (n : Z), is_derive f x f' -> is_derive g x g' ->
  (0 < f x -> derives (fun u => rpow (f u) c) x (atom_pow_ac RD (f x, f') c)) /\
  (f x <> 0 -> derives (fun u => rpow (f u) (IZR n)) x (atom_pow_ac RD (f x, f') (IZR n))) /\
  (0 < f x -> derives (fun u => rpow (f u) (g u)) x (atom_pow_aa RD (f x, f') (g x, g'))) /\
  (0 < c -> derives (fun u => rpow c (f u)) x (atom_exponential RD (f x, f') c)).
Proof.
  intros f g x f' g' c n Hf Hg.
  split; [ intros; now apply pow_ac_rule_pos | ]. split; [ intros; now apply pow_ac_rule_int | ].
  split; [ exact (bop_aa_rule BPow f g x f' g' Hf Hg) | intros; now apply exponential_rule ].
Qed.
Print Assumptions C02_rules_power.

Theorem C02_rules_functions : forall (f : R -> R) (x f' : R), is_derive f x f' ->
  (0 < f x -> derives (fun u => ln (f u)) x (atom_log RD (f x, f'))) /\
  derives (fun u => exp (f u)) x (atom_exp RD (f x, f')) /\
  (0 < f x -> derives (fun u => sqrt (f u)) x (atom_sqrt RD (f x, f'))) /\
  derives (fun u => expit (f u)) x (atom_logistic RD (f x, f')).
Proof.
  intros f x f' Hf.
  split; [ intros; now apply log_rule | ]. split; [ now apply exp_rule | ].
  split; [ intros; now apply sqrt_rule | now apply logistic_rule ].
Qed.
Print Assumptions C02_rules_functions.

Theorem C02_rules_maximum : forall (f g : R -> R) (x f' g' c : R), is_derive f x f' -> is_derive g x g' ->
  (f x <> g x -> derives (fun u => Rmax (f u) (g u)) x (atom_maximum_aa RD (f x, f') (g x, g'))) /\
  (f x <> c -> derives (fun u => Rmax (f u) c) x (atom_maximum_ac RD (f x, f') c)).
Proof.
  intros f g x f' g' c Hf Hg. split; intros; [ now apply maximum_aa_rule | now apply maximum_ac_rule ].
Qed.
Print Assumptions C02_rules_maximum.

(* minimum: not reachable as an Atom method under the offered name (rejected), or differentiated correctly *)
Theorem C02_minimum_rule_or_unreachable :
  minimum_is_method = false \/
  ((forall (f g : R -> R) (x f' g' : R), is_derive f x f' -> is_derive g x g' -> f x <> g x ->
      derives (fun u => Rmin (f u) (g u)) x (atom_minimum_aa RD (f x, f') (g x, g'))) /\
   (forall (f : R -> R) (x f' c : R), is_derive f x f' -> f x <> c ->
      derives (fun u => Rmin (f u) c) x (atom_minimum_ac RD (f x, f') c))).
Proof. exact minimum_rule_or_unreachable. Qed.
Print Assumptions C02_minimum_rule_or_unreachable.

(* number ** expression: class Atom has no __rpow__ (Python raises TypeError: rejected), or its rule is correct *)
Theorem C02_rpow_rule_or_absent :
  has_rpow = false \/
  (forall (f : R -> R) (x f' c : R), is_derive f x f' -> 0 < c ->
     derives (fun u => rpow c (f u)) x (atom_rpow RD (f x, f') c)).
Proof. exact rpow_rule_or_absent. Qed.
Print Assumptions C02_rpow_rule_or_absent.

(* ---- 2. expression trees: value and derivative along any differentiable curve of evaluation points ------- *)

Theorem C02_eval_correct : forall (gam : R -> token -> R) (sd : token -> R) (lg : Z -> bool) (s0 : R) (t : tree RD),
  (forall v, In v (vars RD t) -> leaf_ok gam sd lg s0 v) ->
  adm t (gam s0) ->
  result_ok gam s0 t (eval RD (gam s0) sd lg t).
Proof. exact eval_correct. Qed.
Print Assumptions C02_eval_correct.

(* the diff computed for an equation, seeded on one token occurrence, is the partial derivative of the residual
   w.r.t. that occurrence (every other token, including other lags of the same variable, held fixed) ... *)
Theorem C02_equation_diff_plain : forall (t : tree RD) rho lg tok,
  lg (fst tok) = false -> adm t rho -> eval RD rho (ind RD tok) lg t <> VRej ->
  is_derive (fun u => den t (upd rho tok u)) (rho tok) (diff_of RD (eval_equation RD rho (ind RD tok) lg t)).
Proof.
  intros t rho lg tok Hlg. apply (equation_diff_along t rho lg tok (fun u => u)); [ reflexivity | ].
  rewrite Hlg. apply is_derive_id_R.
Qed.
Print Assumptions C02_equation_diff_plain.

(* ... and w.r.t. its logarithm when the variable is a log-variable *)
Theorem C02_equation_diff_log : forall (t : tree RD) rho lg tok,
  lg (fst tok) = true -> 0 < rho tok -> adm t rho -> eval RD rho (ind RD tok) lg t <> VRej ->
  is_derive (fun u => den t (upd rho tok (exp u))) (ln (rho tok)) (diff_of RD (eval_equation RD rho (ind RD tok) lg t)).
Proof.
  intros t rho lg tok Hlg Hpos. apply (equation_diff_along t rho lg tok exp); [ now apply exp_ln | ].
  rewrite Hlg. eapply is_derive_eq; [ apply is_derive_exp | rewrite exp_ln by assumption; cbn; ring ].
Qed.
Print Assumptions C02_equation_diff_log.

(* steady state: seeds 1 and `shift` give the derivatives w.r.t. the (log) level and the (log) change *)
Theorem C02_steady_level : forall (t : tree RD) (lg : Z -> bool) (lev chg : Z -> R) (q0 : Z),
  adm t (steady_path lg lev chg) ->
  result_ok (fun u => steady_path lg (updz lev q0 u) chg) (lev q0) t
            (eval RD (steady_path lg lev chg) (seed_level RD q0) lg t).
Proof.
  intros t lg lev chg q0 Hadm.
  apply (logpath_correct t lg _ (fun u w => updz lev q0 u (fst w) + IZR (snd w) * chg (fst w)));
    [ reflexivity | cbv beta; now rewrite updz_same | | assumption ].
  intros [q s]. unfold updz, seed_level. simpl. destruct (Z.eqb q q0); derive_auto; ringR.
Qed.
Print Assumptions C02_steady_level.

Theorem C02_steady_change : forall (t : tree RD) (lg : Z -> bool) (lev chg : Z -> R) (q0 : Z),
  adm t (steady_path lg lev chg) ->
  result_ok (fun u => steady_path lg lev (updz chg q0 u)) (chg q0) t
            (eval RD (steady_path lg lev chg) (seed_change RD q0) lg t).
Proof.
  intros t lg lev chg q0 Hadm.
  apply (logpath_correct t lg _ (fun u w => lev (fst w) + IZR (snd w) * updz chg q0 u (fst w)));
    [ reflexivity | cbv beta; now rewrite updz_same | | assumption ].
  intros [q s]. unfold updz, seed_change. simpl. destruct (Z.eqb q q0); derive_auto; ringR.
Qed.
Print Assumptions C02_steady_change.

(* the second block row [Ak, Bk + k*Ak] of the non-flat steady Jacobian: residuals evaluated k periods ahead *)
Theorem C02_steady_level_shifted : forall (t : tree RD) (lg : Z -> bool) (lev chg : Z -> R) (q0 k : Z),
  adm t (shift_rho RD (steady_path lg lev chg) k) ->
  result_ok (fun u => shift_rho RD (steady_path lg (updz lev q0 u) chg) k) (lev q0) t
            (eval RD (shift_rho RD (steady_path lg lev chg) k) (seed_level RD q0) lg t).
Proof.
  intros t lg lev chg q0 k Hadm.
  apply (logpath_correct t lg _ (fun u w => updz lev q0 u (fst w) + IZR (snd w + k) * chg (fst w)));
    [ reflexivity | cbv beta; now rewrite updz_same | | assumption ].
  intros [q s]. unfold updz, seed_level. simpl. destruct (Z.eqb q q0); derive_auto; ringR.
Qed.
Print Assumptions C02_steady_level_shifted.

Theorem C02_steady_change_shifted : forall (t : tree RD) (lg : Z -> bool) (lev chg : Z -> R) (q0 k : Z),
  adm t (shift_rho RD (steady_path lg lev chg) k) ->
  match eval RD (shift_rho RD (steady_path lg lev chg) k) (seed_level RD q0) lg t,
        eval RD (shift_rho RD (steady_path lg lev chg) k) (seed_change RD q0) lg t with
  | VA dA, VA dB =>
      is_derive (fun u => den t (shift_rho RD (steady_path lg lev (updz chg q0 u)) k)) (chg q0)
                (snd dB + IZR k * snd dA)
  | _, _ => True
  end.
Proof.
  intros t lg lev chg q0 k Hadm.
  pose proof (logpath_correct t lg (fun u => shift_rho RD (steady_path lg lev (updz chg q0 u)) k)
                (fun u w => lev (fst w) + IZR (snd w + k) * updz chg q0 u (fst w)) (chg q0)
                (sd3 (seed_change RD q0) (seed_level RD q0) (IZR k)) (shift_rho RD (steady_path lg lev chg) k)
                (fun _ _ => eq_refl)) as H.
  revert H.
  (* a token's shift from the period evaluated is its own shift plus k, whereas its seed for the change is its own
     shift: the missing k times the level seed is added by linearity *)
  destruct (lin3P _ _ _ _ (eval_linear (shift_rho RD (steady_path lg lev chg) k) lg
                             (seed_change RD q0) (seed_level RD q0) (IZR k) t)); intros H; try exact I.
  refine (proj2 (H _ _ Hadm)); [ cbv beta; now rewrite updz_same | ].
  intros [q s]. unfold updz, sd3, seed_change, seed_level. simpl. rewrite plus_IZR.
  destruct (Z.eqb q q0); derive_auto; ringR.
Qed.
Print Assumptions C02_steady_change_shifted.

(* the computed diff is linear in the seeds *)
Theorem C02_eval_linear : forall rho lg sd1 sd2 c (t : tree RD),
  lin3 c (eval RD rho sd1 lg t) (eval RD rho sd2 lg t) (eval RD rho (sd3 sd1 sd2 c) lg t).
Proof. exact eval_linear. Qed.
Print Assumptions C02_eval_linear.

(* a token that does not occur in an equation: the true derivative is 0 *)
Theorem C02_partial_absent : forall (t : tree RD) rho v (g : R -> R) x, ~ In v (vars RD t) ->
  is_derive (fun u => den t (upd rho v (g u))) x 0.
Proof.
  intros t rho v g x Hn.
  apply (is_derive_ext (fun _ : R => den t rho)); [ | apply is_derive_const_R ].
  intros u. apply den_ext. intros w Hw. unfold upd.
  destruct (token_eqb_spec w v) as [-> | _]; [ contradiction | reflexivity ].
Qed.
Print Assumptions C02_partial_absent.

(* ---- 3. offered in equations: differentiated correctly or rejected -------------------------------------- *)

Theorem C02_offered_or_rejected : forall name, In name offered ->
  is_method name = false \/ proved_function name = true.
Proof. exact offered_or_rejected. Qed.
Print Assumptions C02_offered_or_rejected.

(* ---- 4. placement ---------------------------------------------------------------------------------------- *)

Theorem C02_array_map_places : forall {V} (zero : V) (td : nat -> nat -> V) eids m cols offs rcol off i eid k t c,
  (forall e, In e eids -> NoDup (wrt_of m e)) ->
  nth_error eids i = Some eid -> nth_error (wrt_of m eid) k = Some t -> col_of cols t = Some c ->
  cell zero td (array_map_static eids m cols offs rcol off) i (off + c)%nat = td (offset_of offs eid + k)%nat rcol.
Proof. exact @array_map_places. Qed.
Print Assumptions C02_array_map_places.

Theorem C02_array_map_zero_elsewhere : forall {V} (zero : V) (td : nat -> nat -> V) eids m cols offs rcol off r cc,
  (forall i eid k t c, nth_error eids i = Some eid -> nth_error (wrt_of m eid) k = Some t -> col_of cols t = Some c ->
     (r, cc) <> (i, (off + c)%nat)) ->
  cell zero td (array_map_static eids m cols offs rcol off) r cc = zero.
Proof. exact @array_map_zero_elsewhere. Qed.
Print Assumptions C02_array_map_zero_elsewhere.

Theorem C02_stacked_map_places : forall {V} (zero : V) (td : nat -> nat -> V) eids m spots cte i eid k tok j col c,
  (forall e, In e eids -> NoDup (wrt_of m e)) ->
  nth_error eids i = Some eid -> nth_error (wrt_of m eid) k = Some tok -> nth_error cte j = Some col ->
  col_of (some_columns spots) (shifted tok col) = Some c ->
  cell zero td (stacked_map eids m spots cte) (i + List.length eids * j)%nat c
  = td (prefix_len m (firstn i eids) + k)%nat j.
Proof. exact @stacked_map_places. Qed.
Print Assumptions C02_stacked_map_places.

Theorem C02_stacked_map_zero_elsewhere : forall {V} (zero : V) (td : nat -> nat -> V) eids m spots cte r cc,
  (forall i eid k tok j col, nth_error eids i = Some eid -> nth_error (wrt_of m eid) k = Some tok ->
     nth_error cte j = Some col -> col_of (some_columns spots) (shifted tok col) = Some cc ->
     r <> (i + List.length eids * j)%nat) ->
  cell zero td (stacked_map eids m spots cte) r cc = zero.
Proof.
  intros V zero td eids m spots cte r cc H. apply cell_miss.
  intros e Hin E. apply stacked_from_In in Hin as (i & eid & k & tok & j & col & lc & Hi & Hk & Hj & Hc & ->).
  injection E as <- ->. exact (H i eid k tok j col Hi Hk Hj Hc eq_refl).
Qed.
Print Assumptions C02_stacked_map_zero_elsewhere.

(* the stacked-time Jacobian as assembled: cell (equation i in period j, column of the spot) holds the diff of that
   equation computed on the data of period j, seeded on the token that the spot is for that period *)
Theorem C02_stacked_jacobian_entry : forall rho lg (l1 l2 : list (Z * tree RD)) m spots cte eid t k tok j col c,
  (forall e, In e (map fst (l1 ++ (eid, t) :: l2)) -> NoDup (wrt_of m e)) ->
  nth_error (wrt_of m eid) k = Some tok -> nth_error cte j = Some col ->
  col_of (some_columns spots) (shifted tok col) = Some c ->
  cell 0 (td2_of RD (stacked_td RD rho lg (l1 ++ (eid, t) :: l2) m cte))
       (stacked_map (map fst (l1 ++ (eid, t) :: l2)) m spots cte)
       (List.length l1 + List.length (map fst (l1 ++ (eid, t) :: l2)) * j)%nat c
  = diff_of RD (eval_equation RD (shift_rho RD rho col) (ind RD tok) lg t).
Proof.
  intros rho lg l1 l2 m spots cte eid t k tok j col c ND Hk Hj Hc.
  assert (Hi : nth_error (map fst (l1 ++ (eid, t) :: l2)) (List.length l1) = Some eid).
  { now rewrite map_app, nth_error_app2, map_length, Nat.sub_diag by (rewrite map_length; lia). }
  rewrite (stacked_map_places _ _ _ m spots cte _ eid k tok j col c ND Hi Hk Hj Hc).
  rewrite map_app, <- (map_length fst l1), firstn_app, Nat.sub_diag, firstn_all, app_nil_r.
  unfold td2_of, stacked_td.
  rewrite (rows_nth (fun t tok => map (fun c => diff_of RD (eval_equation RD (shift_rho RD rho c) (ind RD tok) lg t)) cte)
             m l1 l2 eid t k tok [] Hk).
  apply nth_error_nth. now rewrite nth_error_map, Hj.
Qed.
Print Assumptions C02_stacked_jacobian_entry.

(* the terminal-condition correction of the stacked-time Jacobian (fords/terminators.py): which column of the first-order
   transition matrices is added into which column of the Jacobian *)
Theorem C02_terminal_map_pairs : forall terminit spots i j,
  In (i, j) (terminal_jacobian_map terminit spots) <->
  exists t, nth_error terminit j = Some t /\ col_of (some_columns spots) t = Some i.
Proof.
  intros terminit spots i j. unfold terminal_jacobian_map.
  rewrite (In_indexed_option (fun j l => terminal_map_from l (some_columns spots) j) (fun _ t => col_of (some_columns spots) t)
             (fun j _ i => (i, j))) by reflexivity.
  split.
  - intros (k & t & c & Hk & Hc & [= -> ->]). eauto.
  - intros (t & Hj & Hc). exists j, t, i. auto.
Qed.
Print Assumptions C02_terminal_map_pairs.

(* a matrix of the unsolved system (A, B with its lagged columns, D, F, G, J): entry (i, c) is the diff of equation
   eids[i] seeded on the token of column c; with C02_equation_diff_plain/_log it is the partial derivative *)
Theorem C02_system_matrix_entry : forall rho lg (l1 l2 : list (Z * tree RD)) m eids cols i c eid t tok k,
  ~ In eid (map fst l2) ->
  (forall e, In e eids -> NoDup (wrt_of m e)) ->
  nth_error eids i = Some eid -> col_of cols tok = Some c -> nth_error (wrt_of m eid) k = Some tok ->
  nth c (nth i (system_matrix RD rho lg (l1 ++ (eid, t) :: l2) m eids cols) []) 0
  = diff_of RD (eval_equation RD rho (ind RD tok) lg t).
Proof.
  intros rho lg l1 l2 m eids cols i c eid t tok k Hnot ND Hi Hc Hk.
  rewrite system_matrix_cell by (apply nth_error_Some; congruence) || exact (col_of_lt _ _ _ Hc).
  refine (eq_trans (array_map_places _ _ eids m cols _ 0 0 i eid k tok c ND Hi Hk Hc) _).
  unfold create_eid_to_rhs_offset, td_of. rewrite map_app. cbn [map fst].
  rewrite offset_of_split by assumption.
  exact (rows_nth (fun t tok => diff_of RD (eval_equation RD rho (ind RD tok) lg t)) m l1 l2 eid t k tok _ Hk).
Qed.
Print Assumptions C02_system_matrix_entry.

Theorem C02_system_matrix_zero : forall rho lg (eqs : list (Z * tree RD)) m eids cols i c eid tok,
  nth_error eids i = Some eid -> col_of cols tok = Some c -> ~ In tok (wrt_of m eid) ->
  nth c (nth i (system_matrix RD rho lg eqs m eids cols) []) 0 = 0.
Proof.
  intros rho lg eqs m eids cols i c eid tok Hi Hc Hnot.
  rewrite system_matrix_cell by (apply nth_error_Some; congruence) || exact (col_of_lt _ _ _ Hc).
  apply array_map_zero_elsewhere. intros i' eid' k t' c' Hi' Hk' Hc' [= <- <-].
  rewrite Hi in Hi'. injection Hi' as <-. rewrite (col_of_inj _ _ _ _ Hc' Hc) in Hk'.
  exact (Hnot (nth_error_In _ _ Hk')).
Qed.
Print Assumptions C02_system_matrix_zero.

(* columns of B that SystemMap blanks out (the lagged token is itself a transition variable) stay empty *)
Theorem C02_system_matrix_none_column : forall rho lg (eqs : list (Z * tree RD)) m eids cols i c,
  (i < List.length eids)%nat -> nth_error cols c = Some None ->
  nth c (nth i (system_matrix RD rho lg eqs m eids cols) []) 0 = 0.
Proof.
  intros rho lg eqs m eids cols i c Hil Hn.
  rewrite system_matrix_cell by assumption || (apply nth_error_Some; congruence).
  apply array_map_zero_elsewhere. intros i' eid' k t' c' _ _ Hc' [= _ <-].
  apply col_of_sound in Hc'. congruence.
Qed.
Print Assumptions C02_system_matrix_none_column.

(* ---- 5. user functions: the two-sided quotient is the derivative of affine functions (only) --------------- *)
Theorem C02_user_function_quotient_partial : forall a b x : R,
  is_derive (fun u => a * u + b) x (fd_two_sided (fun u => a * u + b) x).
Proof.
  intros a b x. rewrite fd_two_sided_affine. derive_auto. ringR.
Qed.
Print Assumptions C02_user_function_quotient_partial.

(* ---- 6. the two defective rules as they were found are provably not derivatives --------------------------- *)
Theorem C02_sqrt_rule_as_found_refuted :
  exists (f : R -> R) (x f' : R), is_derive f x f' /\ 0 < f x /\
    ~ derives (fun u => sqrt (f u)) x (sqrt_rule_as_found (f x, f')).
Proof.
  assert (Hf : is_derive (fun u : R => 4 * u) 1 4) by (derive_auto; ringR).
  exists (fun u => 4 * u), 1, 4. split; [ exact Hf | split; [ lra | ] ].
  intros [_ D]. destruct (sqrt_rule _ 1 4 Hf ltac:(lra)) as [_ D'].
  apply is_derive_unique in D, D'. rewrite D' in D. cbn in D.
  assert (S : sqrt 4 = 2) by (replace 4 with (2 * 2) by ring; apply sqrt_square; lra).
  rewrite Rmult_1_r, S in D. lra.
Qed.
Print Assumptions C02_sqrt_rule_as_found_refuted.

Theorem C02_maximum_rule_as_found_refuted :
  exists (f g : R -> R) (x f' g' : R), is_derive f x f' /\ is_derive g x g' /\ f x <> g x /\
    ~ derives (fun u => Rmax (f u) (g u)) x (maximum_aa_rule_as_found (f x, f') (g x, g')).
Proof.
  assert (Hf : is_derive (fun _ : R => 1) 1 0) by apply is_derive_const_R.
  assert (Hg : is_derive (fun u : R => 3 * u) 1 3) by (derive_auto; ringR).
  exists (fun _ => 1), (fun u => 3 * u), 1, 0, 3. split; [ exact Hf | split; [ exact Hg | split; [ lra | ] ] ].
  intros [_ D]. destruct (derives_Rmax _ _ 1 0 3 Hf Hg ltac:(lra)) as [_ D'].
  apply is_derive_unique in D, D'. rewrite D' in D. cbn in D.
  destruct (Rlt_dec 1 (3 * 1)); simpl in D; lra.
Qed.
Print Assumptions C02_maximum_rule_as_found_refuted.

(* non-vacuity: sqrt(x*x) at x = 4 is admissible, is not rejected, and its derivative is computed as 1 *)
Example C02_hypotheses_satisfiable :
  let t : tree RD := TFun FSqrt (TBin BMul (TVar 0 0) (TVar 0 0)) in
  let rho : token -> R := fun _ => 4 in
  adm t rho /\ (exists d, eval RD rho (ind RD (0%Z, 0%Z)) (fun _ => false) t = VA d /\ snd d = 1).
Proof.
  cbv zeta. split.
  - simpl. lra.
  - eexists. split; [ reflexivity | ].
    cbn. unfold ind. cbn.
    replace (4 * 4) with (Rsqr 4) by (unfold Rsqr; ring). rewrite sqrt_Rsqr by lra. field.
Qed.


(* ---- 7. steady plans (fix_level / fix_change): the columns kept from the full non-flat Jacobian
        [levels of all wrt_qids | changes of all wrt_qids] are those of the unknowns
        [iterated levels | iterated changes], for EVERY pair of subsets (steadiers/evaluators.py eval_jacob) -------- *)
Theorem C02_steady_plan_columns : forall (V : Type) (d : label -> V) (wrt levels changes : list Z),
  reduce_row (mask_of wrt levels) (mask_of wrt changes) (map d (full_labels wrt))
  = map d (unknown_labels wrt (mask_of wrt levels) (mask_of wrt changes)).
Proof. intros. apply reduced_row_is_unknowns. apply mask_of_length. Qed.
Print Assumptions C02_steady_plan_columns.

Theorem C02_steady_plan_entry : forall (V : Type) (d : label -> V) (wrt : list Z) (ml mc : list bool) (j : nat) (u : label) (dflt : V),
  List.length ml = List.length wrt ->
  nth_error (unknown_labels wrt ml mc) j = Some u ->
  nth j (reduce_row ml mc (map d (full_labels wrt))) dflt = d u.
Proof.
  intros V d wrt ml mc j u dflt H Hu. rewrite reduced_row_is_unknowns by exact H.
  apply nth_error_nth. rewrite nth_error_map, Hu. reflexivity.
Qed.
Print Assumptions C02_steady_plan_entry.

Theorem C02_steady_column_index : forall (V : Type) (ml mc : list bool) (rowL rowC : list V) (d : V),
  List.length ml = List.length rowL -> List.length mc = List.length rowC ->
  gather (column_index ml mc (List.length rowL)) (rowL ++ rowC) d = reduce_row ml mc (rowL ++ rowC).
Proof.
  intros V ml mc rowL rowC d HL HC. unfold column_index, reduce_row.
  rewrite select_app by exact HL. unfold gather. rewrite map_app. f_equal.
  - exact (gather_positions_within rowC d ml [] rowL HL).
  - pose proof (gather_positions_within [] d mc rowL rowC HC) as G. rewrite app_nil_r in G. exact G.
Qed.
Print Assumptions C02_steady_column_index.

Theorem C02_steady_column_index_offset_by_iterated_levels_refuted :
  exists (wrt : list Z) (ml mc : list bool),
    gather (column_index ml mc (count_true ml)) (full_labels wrt) (false, 0%Z) <> unknown_labels wrt ml mc.
Proof.
  exists [1%Z; 2%Z], [false; true], [true; true]. vm_compute. discriminate.
Qed.
Print Assumptions C02_steady_column_index_offset_by_iterated_levels_refuted.

(* ---- 8. the terminator caches the rows of the terminal map on its first call: with the STRUCTURAL pattern
        (the same at every evaluation point) every later call, at any point, adds the full terminal-condition
        correction; with the pattern of the non-zero VALUES of the first call it does not -------------------------- *)
Theorem C02_terminal_rows_every_call : forall (V : Type) (zero : V) (add : V -> V -> V),
  (forall x, add x zero = x) ->
  forall (S : list nat) pairs calls st,
  (st = None \/ st = Some S) ->
  List.Forall (fun call => fst (fst call) = S /\ zero_outside zero S (snd call)) calls ->
  List.Forall2 (fun out call => forall r c, out r c = corrected_all add pairs (snd (fst call)) (snd call) r c)
          (trun add st pairs calls) calls.
Proof. exact (@trun_structural_valid). Qed.
Print Assumptions C02_terminal_rows_every_call.

Theorem C02_structural_rows_cover : forall (V : Type) (m : coo V) r c v, ~ In r (coo_rows m) -> ~ In (r, c, v) m.
Proof.
  intros V m r c v H Hin. apply H. unfold coo_rows. rewrite In_sorted_set.
  apply in_map_iff. exists (r, c, v). split; [reflexivity | exact Hin].
Qed.
Print Assumptions C02_structural_rows_cover.

Theorem C02_terminal_value_pattern_refuted :
  exists (pairs : list (nat * nat)) (t1 t2 : coo Z) (regular : nat -> nat -> Z),
    map (fun e => fst e) t1 = map (fun e => fst e) t2 /\
    let addm (t : coo Z) : nat -> nat -> Z :=
        fun r c => fold_right Z.add 0%Z (map (fun e => if andb (Nat.eqb (fst (fst e)) r) (Nat.eqb (snd (fst e)) c) then snd e else 0%Z) t) in
    let calls := [ (nonzero_rows (Z.eqb 0) t1, regular, addm t1); (nonzero_rows (Z.eqb 0) t2, regular, addm t2) ] in
    exists out1 out2, trun Z.add None pairs calls = [out1; out2] /\
      out2 0%nat 0%nat <> corrected_all Z.add pairs regular (addm t2) 0%nat 0%nat.
Proof.
  exists [(0, 0)]%nat, [(0, 0, 0%Z)]%nat, [(0, 0, 3%Z)]%nat, (fun _ _ => 0%Z). split; [reflexivity|].
  cbn zeta. eexists. eexists. split; [reflexivity|]. vm_compute. discriminate.
Qed.
Print Assumptions C02_terminal_value_pattern_refuted.
