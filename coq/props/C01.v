(* C01  First-order solution satisfies the model equations and is the stable one.

   The lemmas are in proofs/Ford*Proofs.v (solution algebra, paths, leads, classification) and
   proofs/VariantListProofs.v (the list of variants); a theorem here is an instance of one of them or is proved from
   them on the spot.
   The model (model/Ford.v) is one text over the matrix interface lib/MxC01.v; here it is instantiated on
   MathComp matrices over an ARBITRARY field F and ARBITRARY sizes nb (backward/stable), nf (forward/unstable),
   ne (shocks), ny, nw.  The ordered QZ decomposition (S, T, Q, Z), the Schur factors (Ta, u) and lstsq (modelled
   as inverse) are oracles: their contracts are premises.  The classification predicates come from gen/FordGen.v,
   regenerated from fords/solutions.py on every run.

   Notation of the statements (t = a simulated period):
     xi[t]        the solution (transition) vector, xi[t] = T xi[t-1] + K + P (u[t] + v[t]) - X a[t]
     u, v         unanticipated / anticipated shock vectors;  e[t] = u[t] + v[t]
     a[t]         = sum_{k>=1} J^(k-1) Ru v[t+k], the effect of shocks anticipated after t  (ant (drop t.+1 vs))
     xi+ (full)   the stacked system vector [leads; xi] implied by a state and an anticipation term
*)
From Verif Require Import lib.MxC01 gen.FordGen model.Ford
     proofs.FordProofs proofs.FordSquareProofs proofs.FordSimProofs proofs.FordPathProofs proofs.FordLeadsProofs
     proofs.FordDiscreteProofs proofs.FordExampleProofs proofs.FordMeasUniqueProofs
     lib.MxScale gen.FordSteadyGen model.FordSteady proofs.FordSteadyProofs
     lib.VarStmt gen.VariantListGen model.VariantList proofs.VariantListProofs.
From mathcomp Require Import ssreflect ssrfun ssrbool eqtype ssrnat seq choice fintype finfun bigop ssralg zmodp matrix mxalgebra mxpoly ssrnum rat.
Import GRing.Theory.
Local Open Scope ring_scope.

(* 1. The triangular solution (G, Ru, Ku, Xg0, Xg1, Tg, Rg, Kg, J, Xg of _solve_transition_equations) makes BOTH blocks
      of the QZ-transformed system hold:  S w[t] + T w[t-1|t] + Q C + Q D e[t] = 0  along
      gamma[t] = Tg gamma[t-1] + Kg + Rg e[t] - Xg a[t],  u[t] = Ku + a[t],  u[t-1|t] = Ku + Ru e[t] + J a[t],  s = gamma + G u,
      for every gamma[t-1], shock e[t] and anticipation term a[t] *)
Theorem C01_triangular_solves_system :
  forall (F : fieldType) (nb nf ne : nat) (S T Q : 'M[F]_(nb + nf)) (Z : 'M[F]_(nf + nb, nb + nf))
         (C : 'cV[F]_(nb + nf)) (D : 'M[F]_(nb + nf, ne)),
  let p := @solve_transition (MCOps F) nb nf ne S T Q Z C D in
  dlsubmx S = 0 -> dlsubmx T = 0 ->
  ulsubmx S \in unitmx -> drsubmx T \in unitmx -> drsubmx S + drsubmx T \in unitmx ->
  forall (g0 : 'cV[F]_nb) (e : 'cV[F]_ne) (a : 'cV[F]_nf),
  let g1 := ts_Tg p *m g0 + ts_Kg p + ts_Rg p *m e - ts_Xg p *m a in
  let u1 := ts_Ku p + a in
  let u0 := ts_Ku p + (ts_Ru p *m e + ts_J p *m a) in
  S *m col_mx (g1 + ts_G p *m u1) u1 + T *m col_mx (g0 + ts_G p *m u0) u0 + Q *m C + Q *m D *m e = 0.
Proof. exact: triangular_solves_system. Qed.
Print Assumptions C01_triangular_solves_system.

(* 2. EVERY simulated period of simulate_flat, from EVERY initial condition, with EVERY path of unanticipated (us) and
      anticipated (vs) shocks, satisfies the unsolved system
            A xi+[t] + B xi+[t-1|t] + C + D e[t] = 0
      where the backward rows of xi+[t] and xi+[t-1|t] are the simulated xi[t], xi[t-1] themselves, and xi+[t-1|t] is the
      previous stacked vector revised for the news:  anticipation term a[t-1] + Ru u[t]  (= a[t-1] when no unanticipated
      shock arrives, i.e. exactly the previous period's own xi+) *)
Theorem C01_square_solves_system :
  forall (F : fieldType) (nb nf ne : nat) (A B : 'M[F]_(nb + nf, nf + nb)) (C : 'cV[F]_(nb + nf)) (D : 'M[F]_(nb + nf, ne))
         (S T Q : 'M[F]_(nb + nf)) (Z : 'M[F]_(nf + nb, nb + nf)) (Ta u : 'M[F]_nb),
  let p := @solve_transition (MCOps F) nb nf ne S T Q Z C D in
  let sq := @square_from_triangular (MCOps F) nb nf ne (@detach (MCOps F) nb nf ne p Ta u) in
  Q *m A *m Z = S -> Q *m B *m Z = T -> Q \in unitmx ->
  dlsubmx S = 0 -> dlsubmx T = 0 ->
  ulsubmx S \in unitmx -> drsubmx T \in unitmx -> drsubmx S + drsubmx T \in unitmx -> dlsubmx Z \in unitmx ->
  u *m u^T = 1%:M -> ts_Tg p = u *m Ta *m u^T ->
  forall (true_init : nat -> bool) (init : 'cV[F]_nb) (us vs : seq 'cV[F]_ne), size us = size vs ->
  let xis := @simulate_flat (MCOps F) nb nf ne false true_init (sq_T sq) (sq_P sq) (sq_K sq) (sq_X sq) (ts_J p) (ts_Ru p)
                            init us vs in
  let xi_init : 'cV[F]_nb := @mrowmask (MCOps F) nb 1 true_init init in
  forall t, (t < size us)%N ->
  let xi_t := nth 0 xis t in let xi_p := nth 0 (xi_init :: xis) t in
  let a_t := ant (ts_J p) (ts_Ru p) (drop t.+1 vs) in let a_p := ant (ts_J p) (ts_Ru p) (drop t vs) in
  let e_t := nth 0 us t + nth 0 vs t in
  [/\ A *m full C D S T Q Z xi_t a_t + B *m full C D S T Q Z xi_p (a_p + ts_Ru p *m nth 0 us t) + C + D *m e_t = 0,
      dsubmx (full C D S T Q Z xi_t a_t) = xi_t &
      dsubmx (full C D S T Q Z xi_p (a_p + ts_Ru p *m nth 0 us t)) = xi_p].
Proof. exact: square_solves_system. Qed.
Print Assumptions C01_square_solves_system.

(* frame-by-frame simulation (simulate(..., force_split_frames=True): a new frame at every unanticipated shock, each frame a
   flat simulation to the end of the base span with later unanticipated shocks pruned, only its own periods written back)
   returns exactly the flat path, so C01_square_solves_system and all that follows hold for it as well *)
Theorem C01_split_frames_equal_flat :
  forall (F : fieldType) (nb nf ne : nat) (T : 'M[F]_nb) (P : 'M[F]_(nb, ne)) (X : 'M[F]_(nb, nf)) (J : 'M[F]_nf)
         (Ru : 'M[F]_(nf, ne)) (K : 'cV[F]_nb) (deviation : bool) (true_init : nat -> bool) (init : 'cV[F]_nb)
         (us vs : seq 'cV[F]_ne),
  size us = size vs ->
  @simulate_split (MCOps F) nb nf ne deviation true_init T P K X J Ru init us vs
  = @simulate_flat (MCOps F) nb nf ne deviation true_init T P K X J Ru init us vs.
Proof.
move=> F nb nf ne T P X J Ru K deviation true_init init us vs sz; rewrite /simulate_split /simulate_flat.
by case: deviation; apply: split_go_flat => //; exact: imps_ok_impacts.
Qed.
Print Assumptions C01_split_frames_equal_flat.

(* 3. Anticipated shocks: the impact the code adds in column t (Rx[0] v[t] + Rx[1] v[t+1] + ..., Rx[k] = -X J^(k-1) Ru,
      truncated at the last non-zero anticipated shock) is  P v[t] - X a[t];  and a[t-1] = sum_k J^k Ru v[t+k]
      (forward expansion, by induction over the horizon) *)
Theorem C01_anticipated_impacts :
  forall (F : fieldType) (nb nf ne : nat) (P : 'M[F]_(nb, ne)) (X : 'M[F]_(nb, nf)) (J : 'M[F]_nf) (Ru : 'M[F]_(nf, ne))
         (vs : seq 'cV[F]_ne) (t : nat), (t < size vs)%N ->
  let imps := @anticipated_impacts (MCOps F) nb nf ne P X J Ru vs in
  size imps = size vs /\
  imp_val (nth None imps t) = P *m nth 0 vs t - X *m ant J Ru (drop t.+1 vs).
Proof. exact: impacts_spec. Qed.
Print Assumptions C01_anticipated_impacts.

Theorem C01_forward_expansion :
  forall (F : fieldType) (nf ne : nat) (J : 'M[F]_nf) (Ru : 'M[F]_(nf, ne)) (vs : seq 'cV[F]_ne),
  ant J Ru vs = \sum_(0 <= k < size vs) @mpow (MCOps F) nf J k *m Ru *m nth 0 vs k.
Proof. exact: ant_closed. Qed.
Print Assumptions C01_forward_expansion.

(* 4. Leads are read from the model-consistent continuation of the same path.  For ANY solved model whose stacked
      vector xp satisfies the system along the recursion (square_step of proofs/FordSquareProofs.v provides this for `full`), and any chain of positions
      idx 0, ..., idx n linked by dynamic-identity rows (x{k} today = x{k+1} in yesterday's vector):
      the entry of xi+ for x{+n} equals the entry for x{0} n periods ahead on the continuation c (no unanticipated shocks) *)
Theorem C01_leads_from_continuation :
  forall (F : fieldType) (nb nf ne : nat) (A B : 'M[F]_(nb + nf, nf + nb)) (C : 'cV[F]_(nb + nf)) (D : 'M[F]_(nb + nf, ne))
         (Tsq : 'M[F]_nb) (K : 'cV[F]_nb) (P : 'M[F]_(nb, ne)) (X : 'M[F]_(nb, nf)) (J : 'M[F]_nf) (Ru : 'M[F]_(nf, ne))
         (xp : 'cV[F]_nb -> 'cV[F]_nf -> 'cV[F]_(nf + nb)),
  (forall xi a, dsubmx (xp xi a) = xi) ->
  (forall xi0 e a, A *m xp (Tsq *m xi0 + K + P *m e - X *m a) a + B *m xp xi0 (Ru *m e + J *m a) + C + D *m e = 0) ->
  forall (c : nat -> 'cV[F]_nb) (a : nat -> 'cV[F]_nf) (v : nat -> 'cV[F]_ne),
  (forall m, c m.+1 = Tsq *m c m + K + P *m v m.+1 - X *m a m.+1) ->
  (forall m, a m = Ru *m v m.+1 + J *m a m.+1) ->
  forall (idx : nat -> 'I_(nf + nb)) (n : nat) (j0 : 'I_nb),
  idx 0%N = rshift nf j0 ->
  (forall k, (k < n)%N -> exists r, dynid_row A B C D r (idx k) (idx k.+1)) ->
  forall m, xp (c m) (a m) (idx n) 0 = c (m + n)%N j0 0.
Proof. exact: leads_are_future_states. Qed.
Print Assumptions C01_leads_from_continuation.

(* ... in particular for the solution of C01_square_solves_system: the lead entries of `full` ARE the future states of the continuation *)
Theorem C01_leads_of_solution :
  forall (F : fieldType) (nb nf ne : nat) (A B : 'M[F]_(nb + nf, nf + nb)) (C : 'cV[F]_(nb + nf)) (D : 'M[F]_(nb + nf, ne))
         (S T Q : 'M[F]_(nb + nf)) (Z : 'M[F]_(nf + nb, nb + nf)) (Ta u : 'M[F]_nb),
  let p := @solve_transition (MCOps F) nb nf ne S T Q Z C D in
  let sq := @square_from_triangular (MCOps F) nb nf ne (@detach (MCOps F) nb nf ne p Ta u) in
  Q *m A *m Z = S -> Q *m B *m Z = T -> Q \in unitmx ->
  dlsubmx S = 0 -> dlsubmx T = 0 ->
  ulsubmx S \in unitmx -> drsubmx T \in unitmx -> drsubmx S + drsubmx T \in unitmx -> dlsubmx Z \in unitmx ->
  u *m u^T = 1%:M -> ts_Tg p = u *m Ta *m u^T ->
  forall (c : nat -> 'cV[F]_nb) (a : nat -> 'cV[F]_nf) (v : nat -> 'cV[F]_ne),
  (forall m, c m.+1 = sq_T sq *m c m + sq_K sq + sq_P sq *m v m.+1 - sq_X sq *m a m.+1) ->
  (forall m, a m = ts_Ru p *m v m.+1 + ts_J p *m a m.+1) ->
  forall (idx : nat -> 'I_(nf + nb)) (n : nat) (j0 : 'I_nb),
  idx 0%N = rshift nf j0 ->
  (forall k, (k < n)%N -> exists r, dynid_row A B C D r (idx k) (idx k.+1)) ->
  forall m, full C D S T Q Z (c m) (a m) (idx n) 0 = c (m + n)%N j0 0.
Proof.
move=> F nb nf ne A B C D S T Q Z Ta u p sq QAZ QBZ uQ S21_0 T21_0 uS11 uT22 uST22 uZ21 uu schur c a v c_step a_step.
apply: (leads_are_future_states _ _ c_step a_step); first by move=> xi a0; exact: full_bottom.
by move=> xi0 e a0; exact: (square_step QAZ QBZ uQ S21_0 T21_0 uS11 uT22 uST22 uZ21 uu schur).
Qed.
Print Assumptions C01_leads_of_solution.

(* 5. The dynamic identities built by _create_dynid_matrices from a token vector: one row per token not at its quantity's
      maximum shift, in vector order, pairing (q,k) at position i with (q,k+1) at position j; as linear forms
      dynid_A[r].x + dynid_B[r].y = x[i] - y[j]  (entries +1 / -1 regenerated from the source) *)
Theorem C01_dynid_rows :
  forall (vec : list token) (ps : list (nat * nat)), dynid_pairs vec = Some ps ->
  List.map fst ps = nonmax_positions vec vec 0 /\
  List.Forall (dynid_pair_ok vec) ps /\
  forall r i j (x y : list BinNums.Z), List.nth_error ps r = Some (i, j) ->
    length x = length vec -> length y = length vec ->
    BinInt.Z.add (dotZ (List.nth r (dynid_A vec ps) nil) x) (dotZ (List.nth r (dynid_B vec ps) nil) y)
    = BinInt.Z.sub (List.nth i x BinNums.Z0) (List.nth j y BinNums.Z0).
Proof. exact dynid_rows. Qed.
Print Assumptions C01_dynid_rows.

(* for EVERY set of tokens, the system vector built by SystemVectors is closed under "one period later, up to the maximum
   lead" of each quantity: the list.index call of _create_dynid_matrices never fails and the identities exist *)
Theorem C01_dynid_total :
  forall actual meas : list token, exists ps, dynid_pairs (system_vector actual meas) = Some ps.
Proof. exact system_vector_dynid_total. Qed.
Print Assumptions C01_dynid_total.

(* 6. A steady state of the unsolved system is a fixed point of the solved recursion ... *)
Theorem C01_steady_is_fixed_point :
  forall (F : fieldType) (nb nf ne : nat) (A B : 'M[F]_(nb + nf, nf + nb)) (C : 'cV[F]_(nb + nf)) (D : 'M[F]_(nb + nf, ne))
         (S T Q : 'M[F]_(nb + nf)) (Z : 'M[F]_(nf + nb, nb + nf)) (Zi : 'M[F]_(nb + nf, nf + nb)) (Ta u : 'M[F]_nb),
  let p := @solve_transition (MCOps F) nb nf ne S T Q Z C D in
  let sq := @square_from_triangular (MCOps F) nb nf ne (@detach (MCOps F) nb nf ne p Ta u) in
  Q *m A *m Z = S -> Q *m B *m Z = T -> Z *m Zi = 1%:M ->
  dlsubmx S = 0 -> dlsubmx T = 0 ->
  ulsubmx S \in unitmx -> drsubmx S + drsubmx T \in unitmx -> dlsubmx Z \in unitmx ->
  u *m u^T = 1%:M -> ts_Tg p = u *m Ta *m u^T ->
  forall xbar : 'cV[F]_(nf + nb), A *m xbar + B *m xbar + C = 0 ->
  sq_T sq *m dsubmx xbar + sq_K sq = dsubmx xbar.
Proof.
move=> F nb nf ne A B C D S T Q Z Zi Ta u p sq QAZ QBZ ZZi S21_0 T21_0 uS11 uST22 uZ21 uu schur xbar st.
exact: (square_step_unique QAZ QBZ ZZi S21_0 T21_0 uS11 uST22 uZ21 uu schur st).
Qed.
Print Assumptions C01_steady_is_fixed_point.

(* balanced growth: three consecutive points of an affine steady-state path that satisfy the unsolved system are one
   step of the solved recursion (the case x0 = x1 = x2 is the theorem above); for a model not declared linear
   System.__init__ stores C = -(A xi + B xi_lagged), which makes the first premise hold by construction *)
Theorem C01_steady_path_is_solution :
  forall (F : fieldType) (nb nf ne : nat) (A B : 'M[F]_(nb + nf, nf + nb)) (C : 'cV[F]_(nb + nf)) (D : 'M[F]_(nb + nf, ne))
         (S T Q : 'M[F]_(nb + nf)) (Z : 'M[F]_(nf + nb, nb + nf)) (Zi : 'M[F]_(nb + nf, nf + nb)) (Ta u : 'M[F]_nb),
  let p := @solve_transition (MCOps F) nb nf ne S T Q Z C D in
  let sq := @square_from_triangular (MCOps F) nb nf ne (@detach (MCOps F) nb nf ne p Ta u) in
  Q *m A *m Z = S -> Q *m B *m Z = T -> Z *m Zi = 1%:M ->
  dlsubmx S = 0 -> dlsubmx T = 0 ->
  ulsubmx S \in unitmx -> drsubmx S + drsubmx T \in unitmx -> dlsubmx Z \in unitmx ->
  u *m u^T = 1%:M -> ts_Tg p = u *m Ta *m u^T ->
  forall x0 x1 x2 : 'cV[F]_(nf + nb),
  A *m x1 + B *m x0 + C = 0 -> A *m x2 + B *m x1 + C = 0 -> x2 - x1 = x1 - x0 ->
  sq_T sq *m dsubmx x0 + sq_K sq = dsubmx x1.
Proof.
move=> F nb nf ne A B C D S T Q Z Zi Ta u p sq QAZ QBZ ZZi S21_0 T21_0 uS11 uST22 uZ21 uu schur x0 x1 x2 st1 st2 aff.
apply: (square_step_unique QAZ QBZ ZZi S21_0 T21_0 uS11 uST22 uZ21 uu schur st1).
(* the difference of the two equations is (S + T) Z^-1 (x1 - x0) = 0 *)
have ZiK x : Z *m (Zi *m x) = x :> 'cV[F]_(nf + nb) by rewrite mulmxA ZZi mul1mx.
have /(pencil_sum_kernel S21_0 T21_0 uST22) : S *m (Zi *m (x1 - x0)) + T *m (Zi *m (x1 - x0)) = 0.
  rewrite -QAZ -QBZ -!mulmxA !ZiK -mulmxDr -{1}aff !mulmxBr addrACA -opprD.
  by move/eqP: st1; rewrite addr_eq0 => /eqP ->; move/eqP: st2; rewrite addr_eq0 => /eqP ->; rewrite subrr mulmx0.
by rewrite mulmxBr linearB /= => /eqP; rewrite subr_eq0 => /eqP.
Qed.
Print Assumptions C01_steady_path_is_solution.

Theorem C01_system_constant :
  forall (F : fieldType) (nb nf : nat) (A B : 'M[F]_(nb + nf, nf + nb)) (x1 x0 : 'cV[F]_(nf + nb)),
  A *m x1 + B *m x0 + @system_constant (MCOps F) (nb + nf) (nf + nb) A B x1 x0 = 0.
Proof. by move=> F nb nf A B x1 x0; rewrite /system_constant /= addrN. Qed.
Print Assumptions C01_system_constant.

(* ... and then a level simulation equals the steady state plus the deviation simulation of the same shocks,
   period by period (create_deviation_solution zeroes K; zero_false_init_xi masks the initial condition) *)
Theorem C01_level_is_steady_plus_deviation :
  forall (F : fieldType) (nb nf ne : nat) (T : 'M[F]_nb) (P : 'M[F]_(nb, ne)) (K : 'cV[F]_nb) (X : 'M[F]_(nb, nf))
         (J : 'M[F]_nf) (Ru : 'M[F]_(nf, ne)) (true_init : nat -> bool) (xbar d : 'cV[F]_nb) (us vs : seq 'cV[F]_ne),
  T *m xbar + K = xbar ->
  T *m @mrowmask (MCOps F) nb 1 true_init xbar = T *m xbar ->
  @simulate_flat (MCOps F) nb nf ne false true_init T P K X J Ru (xbar + d) us vs
  = [seq xbar + x | x <- @simulate_flat (MCOps F) nb nf ne true true_init T P K X J Ru d us vs].
Proof. exact: level_is_steady_plus_deviation. Qed.
Print Assumptions C01_level_is_steady_plus_deviation.

(* the same along a growing steady-state path xb: level run = path + deviation run, period by period *)
Theorem C01_level_is_steady_path_plus_deviation :
  forall (F : fieldType) (nb nf ne : nat) (T : 'M[F]_nb) (P : 'M[F]_(nb, ne)) (K : 'cV[F]_nb) (X : 'M[F]_(nb, nf))
         (J : 'M[F]_nf) (Ru : 'M[F]_(nf, ne)) (true_init : nat -> bool) (d : 'cV[F]_nb) (us vs : seq 'cV[F]_ne)
         (xb : nat -> 'cV[F]_nb),
  (forall t, T *m xb t + K = xb t.+1) ->
  T *m @mrowmask (MCOps F) nb 1 true_init (xb 0%N) = T *m xb 0%N ->
  let dev := @simulate_flat (MCOps F) nb nf ne true true_init T P K X J Ru d us vs in
  let lev := @simulate_flat (MCOps F) nb nf ne false true_init T P K X J Ru (xb 0%N + d) us vs in
  size lev = size dev /\ forall t, (t < size dev)%N -> nth 0 lev t = xb t.+1 + nth 0 dev t.
Proof. exact: level_path_pointwise. Qed.
Print Assumptions C01_level_is_steady_path_plus_deviation.

(* the deviation path satisfies the homogeneous system (C = 0) in every period *)
Theorem C01_deviation_solves_homogeneous_system :
  forall (F : fieldType) (nb nf ne : nat) (A B : 'M[F]_(nb + nf, nf + nb)) (C : 'cV[F]_(nb + nf)) (D : 'M[F]_(nb + nf, ne))
         (S T Q : 'M[F]_(nb + nf)) (Z : 'M[F]_(nf + nb, nb + nf)) (Ta u : 'M[F]_nb),
  let p := @solve_transition (MCOps F) nb nf ne S T Q Z C D in
  let sq := @square_from_triangular (MCOps F) nb nf ne (@detach (MCOps F) nb nf ne p Ta u) in
  Q *m A *m Z = S -> Q *m B *m Z = T -> Q \in unitmx ->
  dlsubmx S = 0 -> dlsubmx T = 0 ->
  ulsubmx S \in unitmx -> drsubmx T \in unitmx -> drsubmx S + drsubmx T \in unitmx -> dlsubmx Z \in unitmx ->
  u *m u^T = 1%:M -> ts_Tg p = u *m Ta *m u^T ->
  forall (true_init : nat -> bool) (init : 'cV[F]_nb) (us vs : seq 'cV[F]_ne), size us = size vs ->
  let dev := @simulate_flat (MCOps F) nb nf ne true true_init (sq_T sq) (sq_P sq) (sq_K sq) (sq_X sq) (ts_J p) (ts_Ru p)
                            init us vs in
  let d_init : 'cV[F]_nb := @mrowmask (MCOps F) nb 1 true_init init in
  forall t, (t < size us)%N ->
  let xi_t := nth 0 dev t in let xi_p := nth 0 (d_init :: dev) t in
  let a_t := ant (ts_J p) (ts_Ru p) (drop t.+1 vs) in let a_p := ant (ts_J p) (ts_Ru p) (drop t vs) in
  let e_t := nth 0 us t + nth 0 vs t in
  A *m full 0 D S T Q Z xi_t a_t + B *m full 0 D S T Q Z xi_p (a_p + ts_Ru p *m nth 0 us t) + 0 + D *m e_t = 0.
Proof.
move=> F nb nf ne A B C D S T Q Z Ta u p sq QAZ QBZ uQ S21_0 T21_0 uS11 uT22 uST22 uZ21 uu schur.
move=> true_init init us vs same_size dev d_init t lt xi_t xi_p a_t a_p e_t.
(* the level matrices T, P, X and K = 0 are the triangular solution of the homogeneous system seen through Z21 *)
have E := solve_transition_indepC S T Q Z 0 C D.
rewrite /a_p ant_news -?same_size // /xi_t nth_simulate_flat //.
apply: (square_step_of QAZ QBZ uQ S21_0 T21_0 uS11 uT22 uST22 uZ21 _ _ _ _ _ _ xi_p e_t a_t).
- by rewrite E (sq_TE ts_UgE uu uZ21 schur).
- by rewrite E (sq_PE Ta ts_UgE uu).
- by rewrite solve_transition_C0 mulmx0.
- by rewrite E (sq_XE Ta ts_UgE uu).
- by rewrite E.
- by rewrite E.
Qed.
Print Assumptions C01_deviation_solves_homogeneous_system.

(* 7. Measurement block:  F (Z xi + H w + D) + G [leads; xi] + H~ + J w = 0 *)
Theorem C01_measurement_block :
  forall (F : fieldType) (nb nf ny nw : nat) (Fm : 'M[F]_ny) (Gm : 'M[F]_(ny, nf + nb)) (Hc : 'cV[F]_ny)
         (Jm : 'M[F]_(ny, nw)) (Ua : 'M[F]_nb),
  let ms := @solve_measurement (MCOps F) nb nf ny nw Fm Gm Hc Jm Ua in
  Fm \in unitmx -> lsubmx Gm = 0 ->
  forall (f : 'cV[F]_nf) (xi : 'cV[F]_nb) (w : 'cV[F]_nw),
  Fm *m (ms_Z ms *m xi + ms_H ms *m w + ms_D ms) + Gm *m col_mx f xi + Hc + Jm *m w = 0.
Proof. exact: measurement_block. Qed.
Print Assumptions C01_measurement_block.

Theorem C01_measurement_holds_along_path :
  forall (F : fieldType) (nb nf ny nw : nat) (Fm : 'M[F]_ny) (Gm : 'M[F]_(ny, nf + nb)) (Hc : 'cV[F]_ny)
         (Jm : 'M[F]_(ny, nw)) (Ua : 'M[F]_nb),
  let ms := @solve_measurement (MCOps F) nb nf ny nw Fm Gm Hc Jm Ua in
  Fm \in unitmx -> lsubmx Gm = 0 ->
  forall (xis : seq 'cV[F]_nb) (ws : seq 'cV[F]_nw) (f : 'cV[F]_nf) (t : nat), (t < size xis)%N -> (t < size ws)%N ->
  let y_t := nth 0 (@simulate_measurement (MCOps F) nb ny nw false (ms_Z ms) (ms_H ms) (ms_D ms) xis ws) t in
  Fm *m y_t + Gm *m col_mx f (nth 0 xis t) + Hc + Jm *m nth 0 ws t = 0.
Proof.
move=> F nb nf ny nw Fm Gm Hc Jm Ua ms uF no_leads xis ws f t lx lw /=.
by rewrite nth_simulate_measurement //; exact: measurement_block.
Qed.
Print Assumptions C01_measurement_holds_along_path.

(* the guard `lsubmx Gm = 0` (no leads of transition variables in measurement equations) cannot be dropped: the code
   keeps only system.G[:, num_forwards:], and for  o = x{+1} + 1  the computed (Z, H, D) violates the equation *)
Theorem C01_measurement_leads_refuted :
  exists (Fm : 'M[rat_fieldType]_1) (Gm : 'M[rat_fieldType]_(1, 1 + 1)) (Hc : 'cV[rat_fieldType]_1)
         (Jm : 'M[rat_fieldType]_(1, 0)) (Ua : 'M[rat_fieldType]_1)
         (f : 'cV[rat_fieldType]_1) (xi : 'cV[rat_fieldType]_1) (w : 'cV[rat_fieldType]_0),
  let ms := @solve_measurement (MCOps rat_fieldType) 1 1 1 0 Fm Gm Hc Jm Ua in
  Fm \in unitmx /\
  Fm *m (ms_Z ms *m xi + ms_H ms *m w + ms_D ms) + Gm *m col_mx f xi + Hc + Jm *m w != 0.
Proof.
exists (- 1%:M), (row_mx 1%:M 0), 1%:M, 0, 1%:M, 1%:M, 0, 0 => /=; split.
  by rewrite -raddfN unit_scalar1 // oppr_eq0 oner_eq0.
rewrite /left_div /= opprK invmx1 !mul1mx row_mxKr.
have z1 (A : 'M[rat_fieldType]_(1, 1)) : A *m (0 : 'cV[rat_fieldType]_1) = 0 by exact: mulmx0.
have z2 (A : 'M[rat_fieldType]_(1, 0)) : A *m (0 : 'cV[rat_fieldType]_0) = 0 by exact: mulmx0.
rewrite !z1 !z2 !add0r mul_row_col mul0mx !addr0 mulNmx !mul1mx addNr add0r.
by apply/eqP => /matrixP /(_ 0 0); rewrite !mxE /= => /eqP; rewrite oner_eq0.
Qed.
Print Assumptions C01_measurement_leads_refuted.

(* 7b. The measurement clause determines (Z, H, D): for ANY invertible F (also one that is not diagonal, symmetric or
       triangular: measurement equations referring to other measurement variables) the matrices computed by
       _solve_measurement_equations are the only ones that satisfy the clause for every state and measurement shock; hence a
       different way of solving the block that changes any of them violates the property on some input *)
Theorem C01_measurement_solution_unique :
  forall (F : fieldType) (nb nf ny nw : nat) (Fm : 'M[F]_ny) (Gm : 'M[F]_(ny, nf + nb)) (Hc : 'cV[F]_ny)
         (Jm : 'M[F]_(ny, nw)) (Ua : 'M[F]_nb),
  let ms := @solve_measurement (MCOps F) nb nf ny nw Fm Gm Hc Jm Ua in
  Fm \in unitmx -> lsubmx Gm = 0 ->
  forall (Z' : 'M[F]_(ny, nb)) (H' : 'M[F]_(ny, nw)) (D' : 'cV[F]_ny),
  (forall (f : 'cV[F]_nf) (xi : 'cV[F]_nb) (w : 'cV[F]_nw),
     Fm *m (Z' *m xi + H' *m w + D') + Gm *m col_mx f xi + Hc + Jm *m w = 0) ->
  [/\ Z' = ms_Z ms, H' = ms_H ms & D' = ms_D ms].
Proof.
move=> F nb nf ny nw Fm Gm Hc Jm Ua ms uF no_leads Z' H' D' h.
(* both candidates give the same y for every state and shock, because F is invertible *)
have key xi w : Z' *m xi + H' *m w + D' = ms_Z ms *m xi + ms_H ms *m w + ms_D ms.
  apply: (can_inj (mulKmx uF)); have := h 0 xi w.
  by rewrite -(measurement_block Hc Jm Ua uF no_leads 0 xi w) => /addIr/addIr/addIr.
have eD : D' = ms_D ms by have := key 0 0; rewrite !mulmx0 !add0r.
split=> //; apply: mulmx_col_inj => x.
- by have := key x 0; rewrite !mulmx0 !addr0 eD => /addIr.
- by have := key 0 x; rewrite !mulmx0 !add0r eD => /addIr.
Qed.
Print Assumptions C01_measurement_solution_unique.

(* solving with the TRANSPOSE of F is refuted for every invertible non-symmetric F (block  F y - F xi = 0, i.e. y = xi) *)
Theorem C01_measurement_transposed_solve_refuted :
  forall (F : fieldType) (ny : nat) (Fm : 'M[F]_ny), Fm \in unitmx -> Fm^T != Fm ->
  let Gm : 'M[F]_(ny, 0 + ny) := row_mx 0 (- Fm) in
  let Zt : 'M[F]_(ny, ny) := invmx (- Fm^T) *m rsubmx Gm in
  ~ (forall xi : 'cV[F]_ny, Fm *m (Zt *m xi) + Gm *m col_mx (0 : 'cV[F]_0) xi = 0).
Proof.
move=> F ny Fm uF nonsym Gm Zt h.
have rG : rsubmx Gm = - Fm by rewrite /Gm row_mxKr.
have Zt1 : Zt = 1%:M.
  apply: (can_inj (mulKmx uF)); rewrite mulmx1; apply: mulmx_col_inj => xi.
  rewrite -mulmxA; have /eqP := h xi; rewrite addr_eq0 => /eqP ->.
  by rewrite -[Gm]hsubmxK mul_row_col rG mulmx0 add0r mulNmx opprK.
have e1 : Fm^T *m Zt = Fm by rewrite /Zt rG mulmx_ldivN ?unitmx_tr // opprK.
by move: nonsym; rewrite -{2}e1 Zt1 mulmx1 eqxx.
Qed.
Print Assumptions C01_measurement_transposed_solve_refuted.

Theorem C01_nonsymmetric_unit_exists :
  forall F : fieldType, exists Fm : 'M[F]_(1 + 1), Fm \in unitmx /\ Fm^T != Fm.
Proof. exact: nonsymmetric_unit_exists. Qed.
Print Assumptions C01_nonsymmetric_unit_exists.

(* 8. Blanchard-Kahn verdict and eigenvalue classes, over the predicates regenerated from fords/solutions.py *)
Theorem C01_verdict_iff_count :
  forall (ks : list ekind) (nf : nat),
  (classify_system_stability ks nf = S_STABLE <-> count_kind E_UNSTABLE ks = nf) /\
  (classify_system_stability ks nf = S_NO_STABLE <-> (count_kind E_UNSTABLE ks > nf)%coq_nat) /\
  (classify_system_stability ks nf = S_MULTIPLE_STABLE <-> (count_kind E_UNSTABLE ks < nf)%coq_nat).
Proof. exact verdict_iff_count. Qed.
Print Assumptions C01_verdict_iff_count.

Theorem C01_classes_partition :
  forall tol : QArith_base.Q, QArith_base.Qle (QArith_base.Qmake BinNums.Z0 BinNums.xH) tol -> forall x : QArith_base.Q,
  let a := Qabs.Qabs x in
  let one := QArith_base.Qmake (BinNums.Zpos BinNums.xH) BinNums.xH in
  let k := classify_eigenvalue_stability (is_stable_root tol) (is_unit_root tol) x in
  (k = E_STABLE /\ QArith_base.Qlt a (QArith_base.Qminus one tol)) \/
  (k = E_UNIT_ROOT /\ QArith_base.Qle (QArith_base.Qminus one tol) a /\ QArith_base.Qlt a (QArith_base.Qplus one tol)) \/
  (k = E_UNSTABLE /\ QArith_base.Qle (QArith_base.Qplus one tol) a).
Proof.
by move=> tol _ x a one k; rewrite /k; move: (classify_spec tol x); case: (classify_eigenvalue_stability _ _ x); auto.
Qed.
Print Assumptions C01_classes_partition.

Theorem C01_counts_and_verdict :
  forall (tol : QArith_base.Q) (l : list QArith_base.Q) (nf : nat),
  let r := stability tol l nf in
  (rep_num_stable r + rep_num_unit r + rep_num_unstable r = length l)%coq_nat /\
  (rep_verdict r = S_STABLE <-> rep_num_unstable r = nf).
Proof.
move=> tol l nf /=; split; last exact: (proj1 (verdict_iff_count _ nf)).
by rewrite count_kinds_total /classify_eigenvalues_stability List.map_length.
Qed.
Print Assumptions C01_counts_and_verdict.

(* the ordering predicate handed to ordqz selects exactly the roots -beta/alpha that the classifier does not call unstable *)
Theorem C01_qz_sort_consistent :
  forall tol : QArith_base.Q, QArith_base.Qle (QArith_base.Qmake BinNums.Z0 BinNums.xH) tol ->
  forall alpha beta : QArith_base.Q, ~ QArith_base.Qeq alpha (QArith_base.Qmake BinNums.Z0 BinNums.xH) ->
  is_alpha_beta_stable_or_unit_root tol alpha beta = true <->
  classify_eigenvalue_stability (is_stable_root tol) (is_unit_root tol)
    (QArith_base.Qdiv (QArith_base.Qopp beta) alpha) <> E_UNSTABLE.
Proof. exact qz_sort_consistent. Qed.
Print Assumptions C01_qz_sort_consistent.

(* 9. "Non-explosive", PARTIAL: the recursion matrix T is similar (through Z21) to Tg = -S11^-1 T11, which is similar
      (through the orthogonal u) to Ta; its eigenvalues are exactly the generalised eigenvalues of the pencil block
      (S11, T11), i.e. the roots the QZ oracle ordered first.  NOT proved: that |roots| < 1 bounds the powers of T
      (no spectral theory for matrix powers in MathComp 1.15). *)
Theorem C01_recursion_spectrum_partial :
  forall (F : fieldType) (nb nf ne : nat) (C : 'cV[F]_(nb + nf)) (D : 'M[F]_(nb + nf, ne)) (S T Q : 'M[F]_(nb + nf))
         (Z : 'M[F]_(nf + nb, nb + nf)) (Ta u : 'M[F]_nb),
  let p := @solve_transition (MCOps F) nb nf ne S T Q Z C D in
  let sq := @square_from_triangular (MCOps F) nb nf ne (@detach (MCOps F) nb nf ne p Ta u) in
  ulsubmx S \in unitmx -> dlsubmx Z \in unitmx -> u *m u^T = 1%:M -> ts_Tg p = u *m Ta *m u^T ->
  [/\ sq_T sq *m dlsubmx Z = dlsubmx Z *m ts_Tg p,
      ulsubmx S *m ts_Tg p + ulsubmx T = 0,
      ts_Tg p *m u = u *m Ta
    & forall a : F, eigenvalue (sq_T sq) a = (\det (a *: ulsubmx S + ulsubmx T) == 0)].
Proof. exact: recursion_spectrum_partial. Qed.
Print Assumptions C01_recursion_spectrum_partial.

(* 10. Non-vacuity: the contracts are met by a concrete determinate model over the rationals
       (one backward and one forward variable, roots 1/2 and 2) *)
Theorem C01_contracts_satisfiable :
  [/\ exQ *m exA *m exZ = exS, exQ *m exB *m exZ = exT, exQ \in unitmx & exZ *m exZ = 1%:M] /\
  [/\ dlsubmx exS = 0, dlsubmx exT = 0 & ulsubmx exS \in unitmx] /\
  [/\ drsubmx exT \in unitmx, drsubmx exS + drsubmx exT \in unitmx & dlsubmx exZ \in unitmx] /\
  [/\ exu *m exu^T = 1%:M &
      ts_Tg (@solve_transition (MCOps rat_fieldType) 1 1 1 exS exT exQ exZ exC exD) = exu *m exTa *m exu^T].
Proof.
split; [split | split; [split | split; [split | split]]].
- by rewrite /exQ /exA mul1mx -mulmxA exZZ mulmx1.
- by rewrite /exQ /exB mul1mx -mulmxA exZZ mulmx1.
- exact: unitmx1.
- exact: exZZ.
- by rewrite /exS (scalar_mx_block 1 1 1) block_mxKdl.
- by rewrite /exT block_mxKdl.
- by rewrite /exS (scalar_mx_block 1 1 1) block_mxKul unitmx1.
- by rewrite /exT block_mxKdr unit_scalar1 // oppr_eq0 pnatr_eq0.
- by rewrite /exS (scalar_mx_block 1 1 1) /exT !block_mxKdr -raddfD /= unit_scalar1.
- by rewrite /exZ block_mxKdl unitmx1.
- by rewrite /exu trmx1 mulmx1.
- by rewrite /exu /exTa trmx1 mulmx1 mul1mx.
Qed.
Print Assumptions C01_contracts_satisfiable.

(* 11. Steady state of a model declared linear=True, flat=False (fords/steadiers.py::solve_steady_linear_nonflat; the twelve
       blocks of the stacked matrices AB, FF, GG and the constant k are regenerated from the source, gen/FordSteadyGen.v).
       Whatever lstsq returns: if (Xi, dXi, Y, dY) solves the two stacked systems, then levels + s * changes satisfy the
       transition AND the measurement equations at every date (every scalar s, hence every integer t): the reported steady
       state is a steady-state PATH.  With Theorem C01_steady_path_is_solution / C01_level_is_steady_path_plus_deviation this
       is "level simulation = steady state + deviation simulation" for transition variables of such models ... *)
Theorem C01_steady_nonflat_is_path :
  forall (F : fieldType) (m n p : nat) (A B : 'M[F]_(m, n)) (C : 'cV[F]_m) (Fm : 'M[F]_p) (G : 'M[F]_(p, n)) (H : 'cV[F]_p)
         (Xi dXi : 'cV[F]_n) (Y dY : 'cV[F]_p),
  @nonflat_transition_rows (MCOps F) m n A B C Xi dXi = (0, 0) ->
  @nonflat_measurement_rows (MCOps F) p n Fm G H Xi dXi Y dY = (0, 0) ->
  forall s : F,
  A *m (Xi + (s + 1) *: dXi) + B *m (Xi + s *: dXi) + C = 0 /\
  Fm *m (Y + s *: dY) + G *m (Xi + s *: dXi) + H = 0.
Proof.
by move=> F m n p A B C Fm G H Xi dXi Y dY tr ms s; split; [exact: nonflat_transition_path | exact: nonflat_measurement_path].
Qed.
Print Assumptions C01_steady_nonflat_is_path.

(* the same on the model's own path (level + t * change by repeated addition) at every date t = 0, 1, 2, ... *)
Theorem C01_steady_nonflat_residuals_vanish :
  forall (F : fieldType) (m n p : nat) (A B : 'M[F]_(m, n)) (C : 'cV[F]_m) (Fm : 'M[F]_p) (G : 'M[F]_(p, n)) (H : 'cV[F]_p)
         (Xi dXi : 'cV[F]_n) (Y dY : 'cV[F]_p),
  @nonflat_transition_rows (MCOps F) m n A B C Xi dXi = (0, 0) ->
  @nonflat_measurement_rows (MCOps F) p n Fm G H Xi dXi Y dY = (0, 0) ->
  forall t : nat,
  @transition_residual_at (MCOps F) m n A B C Xi dXi t = 0 /\
  @measurement_residual_at (MCOps F) p n Fm G H Xi dXi Y dY t = 0.
Proof.
move=> F m n p A B C Fm G H Xi dXi Y dY tr ms t.
rewrite /transition_residual_at /measurement_residual_at /steady_at !mnatE -!scaler_nat (mulrSr 1 t).
by split; [exact: nonflat_transition_path | exact: nonflat_measurement_path].
Qed.
Print Assumptions C01_steady_nonflat_residuals_vanish.

(* ... and for measurement variables: a point of the steady-state path that satisfies the measurement equations is
   reproduced by the solved measurement block (ybar = Z xbar + D), so the level simulation of a measurement variable
   equals its steady-state value plus its deviation simulation, also along a growing steady state *)
Theorem C01_measurement_level_is_steady_plus_deviation :
  forall (F : fieldType) (nb nf ny nw : nat) (Fm : 'M[F]_ny) (Gm : 'M[F]_(ny, nf + nb)) (Hc : 'cV[F]_ny)
         (Jm : 'M[F]_(ny, nw)) (Ua : 'M[F]_nb),
  let ms := @solve_measurement (MCOps F) nb nf ny nw Fm Gm Hc Jm Ua in
  Fm \in unitmx -> lsubmx Gm = 0 ->
  forall (f : 'cV[F]_nf) (xbar d : 'cV[F]_nb) (ybar : 'cV[F]_ny) (w : 'cV[F]_nw),
  Fm *m ybar + Gm *m col_mx f xbar + Hc = 0 ->
  ms_Z ms *m (xbar + d) + ms_H ms *m w + ms_D ms = ybar + (ms_Z ms *m d + ms_H ms *m w).
Proof.
move=> F nb nf ny nw Fm Gm Hc Jm Ua ms uF no_leads f xbar d ybar w st.
rewrite -(measurement_steady_point Jm Ua uF no_leads st) mulmxDr -!addrA; congr (_ + _).
by rewrite addrA addrC.
Qed.
Print Assumptions C01_measurement_level_is_steady_plus_deviation.

(* 12. Parameter variants (has_variants.py::Mixin; the list-filling statement of expand_num_variants is regenerated from the
       source, gen/VariantListGen.v).  After ANY history of alter_num_variants / assign calls on a model object the list of
       variants never holds one Variant object twice ... *)
Theorem C01_variants_never_alias :
  forall ops : list vop, List.NoDup (vars (run ops init)).
Proof. intros ops. exact (proj1 (run_wf ops init expand_stmt_alias_free init_wf)). Qed.
Print Assumptions C01_variants_never_alias.

(* ... hence a per-variant assignment  assign(name=[v0, v1, ...])  leaves variant i with ITS value v_i (for every i, every
   number of variants, every history), and touches no other name: the parameters that steady() and solve() read for
   variant i -- and therefore the equations the simulated path of variant i has to satisfy -- are those assigned to it *)
Theorem C01_variant_assignment_is_per_variant :
  forall (ops : list vop) (name : nat) (vals : list BinNums.Z) (i : nat),
  let st := run ops init in
  (i < length (vars st))%coq_nat -> (i < length vals)%coq_nat ->
  read (assign name vals st) i name = List.nth i vals BinNums.Z0 /\
  (forall nm j, nm <> name -> read (assign name vals st) j nm = read st j nm).
Proof.
  intros ops name vals i st lt lv. split.
  - apply assign_reads_own; [apply (run_wf ops init expand_stmt_alias_free init_wf) | assumption | apply value_for_exact, lv].
  - intros nm j ne. apply assign_keeps_other_names, ne.
Qed.
Print Assumptions C01_variant_assignment_is_per_variant.

(* the restriction to statements that copy once PER new variant cannot be dropped:  `+= [last.copy()] * count`  aliases *)
Theorem C01_repeated_element_aliases_refuted :
  ~ List.NoDup (vars (exec_expand (SExtendRepeat ECopyLast) 3 init)).
Proof.
  cbn. intro h. inversion h as [|? ? _ h2]; subst. inversion h2 as [|? ? ni _]; subst. apply ni. left. reflexivity.
Qed.
Print Assumptions C01_repeated_element_aliases_refuted.
