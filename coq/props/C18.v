(* C18  Reduced-form VAR estimates are the least-squares solution, reproduce the data.
   The lemmas are in proofs/RedVarProofs.v (algebra), RedVarDataProofs.v (data layer) and SpectralProofs.v.

   The model text (model/RedVar.v) is written once over the matrix interface lib/MxC18.v::MatOps.  The theorems
   below are about its instance [MC solve] on MathComp matrices over an ARBITRARY field F, for arbitrary numbers of
   endogenous (n) and exogenous (m) variables, order q+1, intercept k in {0,1} (any k in fact), sample size N,
   selection w of fitted columns and dummy observations (Ld, Rd).  numpy.linalg.solve is the parameter [solve] and
   enters only through [solve_contract]; the Lyapunov solver and eigvals enter as hypotheses of the _partial
   statements.  The same text is executed on exact rationals against irispie.RedVAR by harness/C18.py. *)
From Coq Require Import String.
From Verif Require Import lib.MxC18MC gen.RedVarGen model.RedVar proofs.RedVarProofs proofs.RedVarDataProofs.
From Verif Require model.Spectral proofs.SpectralProofs.
From mathcomp Require Import all_ssreflect all_algebra.
Set Implicit Arguments.
Unset Strict Implicit.
Import GRing.Theory.
Local Open Scope ring_scope.

Notation solver F := (forall n p : nat, 'M[F]_n -> 'M[F]_(n, p) -> 'M[F]_(n, p)).

(* 0. the contract of numpy.linalg.solve is satisfiable (by the inverse), and so is the full-rank hypothesis *)
Theorem C18_contract_satisfiable (F : fieldType) :
  solve_contract (fun (n p : nat) (M : 'M[F]_n) (N : 'M[F]_(n, p)) => invmx M *m N).
Proof. exact: solve_by_inverse_contract. Qed.
Print Assumptions C18_contract_satisfiable.

Theorem C18_full_rank_satisfiable : R_example *m R_example^T \in unitmx.
Proof. exact: full_rank_example. Qed.
Print Assumptions C18_full_rank_satisfiable.

(* 1. the estimate solves the normal equations of the fitted columns followed by the dummy observations *)
Theorem C18_normal_equations (F : fieldType) (solve : solver F) (n q m k N Nw Nd : nat)
    (w : 'I_Nw -> 'I_N) (dof : bool)
    (Y0 : 'M[F]_(n, N)) (Y1 : 'M[F]_(n + q * n, N)) (X : 'M[F]_(m, N)) (Kc : 'M[F]_(k, N))
    (Ld : 'M[F]_(n, Nd)) (Rd : 'M[F]_(n + q * n + (m + k), Nd)) :
  solve_contract solve ->
  let est := estimate_core (M := MC solve) (n := n) (q := q) (m := m) (k := k) w dof Y0 Y1 X Kc Ld Rd in
  let L : 'M[F]_(n, Nw + Nd) := est.1.1 in
  let R : 'M[F]_(n + q * n + (m + k), Nw + Nd) := est.1.2 in
  let beta : 'M[F]_(n, n + q * n + (m + k)) := est.2.1.1 in
  (L = row_mx (colsel w Y0) Ld /\ R = row_mx (colsel w (col_mx Y1 (col_mx X Kc))) Rd) /\
  (R *m R^T \in unitmx -> beta *m (R *m R^T) = L *m R^T).
Proof. by move=> sc; split; [exact: est_inputs | exact: est_normal_equations]. Qed.
Print Assumptions C18_normal_equations.

(* 2. residuals are orthogonal to the regressors on the fitted columns (plus the dummy-observation term;
      with no prior, Nd = 0 and that term is an empty sum) *)
Theorem C18_residuals_orthogonal (F : fieldType) (solve : solver F) (n q m k N Nw Nd : nat)
    (w : 'I_Nw -> 'I_N) (dof : bool)
    (Y0 : 'M[F]_(n, N)) (Y1 : 'M[F]_(n + q * n, N)) (X : 'M[F]_(m, N)) (Kc : 'M[F]_(k, N))
    (Ld : 'M[F]_(n, Nd)) (Rd : 'M[F]_(n + q * n + (m + k), Nd)) :
  solve_contract solve ->
  let est := estimate_core (M := MC solve) (n := n) (q := q) (m := m) (k := k) w dof Y0 Y1 X Kc Ld Rd in
  let R : 'M[F]_(n + q * n + (m + k), Nw + Nd) := est.1.2 in
  let beta : 'M[F]_(n, n + q * n + (m + k)) := est.2.1.1 in
  let U : 'M[F]_(n, N) := est.2.1.2 in
  R *m R^T \in unitmx ->
  colsel w U *m (colsel w (col_mx Y1 (col_mx X Kc)))^T + (Ld - beta *m Rd) *m Rd^T = 0.
Proof. by move=> sc; exact: est_residual_orthogonal. Qed.
Print Assumptions C18_residuals_orthogonal.

(* 2b. ... and without prior observations (no dummy columns) it is the plain statement U_w R_w' = 0 *)
Theorem C18_residuals_orthogonal_no_prior (F : fieldType) (solve : solver F) (n q m k N Nw : nat)
    (w : 'I_Nw -> 'I_N) (dof : bool)
    (Y0 : 'M[F]_(n, N)) (Y1 : 'M[F]_(n + q * n, N)) (X : 'M[F]_(m, N)) (Kc : 'M[F]_(k, N))
    (Ld : 'M[F]_(n, 0)) (Rd : 'M[F]_(n + q * n + (m + k), 0)) :
  solve_contract solve ->
  let est := estimate_core (M := MC solve) (n := n) (q := q) (m := m) (k := k) w dof Y0 Y1 X Kc Ld Rd in
  let Rw : 'M[F]_(n + q * n + (m + k), Nw) := colsel w (col_mx Y1 (col_mx X Kc)) in
  let U : 'M[F]_(n, N) := est.2.1.2 in
  Rw *m Rw^T \in unitmx -> colsel w U *m Rw^T = 0.
Proof.
move=> sc; rewrite [Rd]thinmx0 => est Rw U u.
have := @est_residual_orthogonal F solve sc n q m k N Nw 0%N w dof Y0 Y1 X Kc Ld 0.
rewrite trmx0 mulmx0 addr0; apply.
by rewrite /= tr_row_mx mul_row_col trmx0 mulmx0 addr0.
Qed.
Print Assumptions C18_residuals_orthogonal_no_prior.

(* 3. fitted equation + stored residual = data: on every column, hence on every fitted observation *)
Theorem C18_fit_plus_residual (F : fieldType) (solve : solver F) (n q m k N Nw Nd : nat)
    (w : 'I_Nw -> 'I_N) (dof : bool)
    (Y0 : 'M[F]_(n, N)) (Y1 : 'M[F]_(n + q * n, N)) (X : 'M[F]_(m, N)) (Kc : 'M[F]_(k, N))
    (Ld : 'M[F]_(n, Nd)) (Rd : 'M[F]_(n + q * n + (m + k), Nd)) :
  let est := estimate_core (M := MC solve) (n := n) (q := q) (m := m) (k := k) w dof Y0 Y1 X Kc Ld Rd in
  let beta : 'M[F]_(n, n + q * n + (m + k)) := est.2.1.1 in
  let U : 'M[F]_(n, N) := est.2.1.2 in
  let A : 'M[F]_(n, n + q * n) := lsubmx beta in
  let B : 'M[F]_(n, m) := lsubmx (rsubmx beta) in
  let c : 'M[F]_(n, k) := rsubmx (rsubmx beta) in
  A *m Y1 + B *m X + c *m Kc + U = Y0 /\
  forall j : 'I_Nw, A *m col (w j) Y1 + B *m col (w j) X + c *m col (w j) Kc + col (w j) U = col (w j) Y0.
Proof. by split; [exact: est_fit_plus_residual | exact: est_fit_plus_residual_col]. Qed.
Print Assumptions C18_fit_plus_residual.

(* 4. noise-free data generated by a VAR return that VAR (and zero residuals, zero covariance) *)
Theorem C18_noise_free_recovery (F : fieldType) (solve : solver F) (n q m k N Nw Nd : nat)
    (w : 'I_Nw -> 'I_N) (dof : bool)
    (Y0 : 'M[F]_(n, N)) (Y1 : 'M[F]_(n + q * n, N)) (X : 'M[F]_(m, N)) (Kc : 'M[F]_(k, N))
    (Ld : 'M[F]_(n, Nd)) (Rd : 'M[F]_(n + q * n + (m + k), Nd)) (b : 'M[F]_(n, n + q * n + (m + k))) :
  solve_contract solve ->
  let est := estimate_core (M := MC solve) (n := n) (q := q) (m := m) (k := k) w dof Y0 Y1 X Kc Ld Rd in
  let R : 'M[F]_(n + q * n + (m + k), Nw + Nd) := est.1.2 in
  let beta : 'M[F]_(n, n + q * n + (m + k)) := est.2.1.1 in
  let U : 'M[F]_(n, N) := est.2.1.2 in
  let cov : 'M[F]_n := est.2.2 in
  R *m R^T \in unitmx ->
  colsel w Y0 = b *m colsel w (col_mx Y1 (col_mx X Kc)) -> Ld = b *m Rd ->
  beta = b /\ colsel w U = 0 /\ cov = 0.
Proof. by move=> sc /= u; exact: est_noise_free. Qed.
Print Assumptions C18_noise_free_recovery.

(* 5. the residual covariance is the (optionally dof-corrected) second moment of the fitted residuals, symmetric *)
Theorem C18_cov_is_second_moment (F : fieldType) (solve : solver F) (n q m k N Nw Nd : nat)
    (w : 'I_Nw -> 'I_N) (dof : bool)
    (Y0 : 'M[F]_(n, N)) (Y1 : 'M[F]_(n + q * n, N)) (X : 'M[F]_(m, N)) (Kc : 'M[F]_(k, N))
    (Ld : 'M[F]_(n, Nd)) (Rd : 'M[F]_(n + q * n + (m + k), Nd)) :
  (2%:R : F) != 0 -> (k <= 1)%N ->
  let est := estimate_core (M := MC solve) (n := n) (q := q) (m := m) (k := k) w dof Y0 Y1 X Kc Ld Rd in
  let U : 'M[F]_(n, N) := est.2.1.2 in
  let cov : 'M[F]_n := est.2.2 in
  cov = (Nw%:R - (if dof then m + k else 0)%N%:R)^-1 *: (colsel w U *m (colsel w U)^T) /\ cov^T = cov.
Proof. by move=> two k1; rewrite -(dof_count_intercept n q m dof k1); exact: est_cov. Qed.
Print Assumptions C18_cov_is_second_moment.

(* 6. the companion matrix acts on a stack of lags as the stacked VAR recursion: one period of simulate_flat
      maps the state (y(t-1); ...; y(t-p)) to (y(t); y(t-1); ...; y(t-p+1)) with
      y(t) = A (y(t-1); ...; y(t-p)) + c + u(t) + B x(t) *)
Theorem C18_companion_is_stacked_recursion (F : fieldType) (solve : solver F) (n q m k : nat)
    (A : 'M[F]_(n, n + q * n)) (B : 'M[F]_(n, m)) (c : 'M[F]_(n, k))
    (h : nat -> 'cV[F]_n) (u : 'cV[F]_n) (x : 'cV[F]_m) :
  sim_step (M := MC solve) (n := n) (q := q) (m := m) (k := k) A B c (stackf q.+1 h) u x
  = stackf q.+1 (hcons (A *m stackf q.+1 h + c *m const_mx 1 + u + B *m x) h)
  /\ sim_obs (M := MC solve) (n := n) (q := q) (stackf q.+1 (hcons (A *m stackf q.+1 h + c *m const_mx 1 + u + B *m x) h))
     = A *m stackf q.+1 h + c *m const_mx 1 + u + B *m x.
Proof. by split; [exact: sim_step_stack | exact: sim_obs_stack]. Qed.
Print Assumptions C18_companion_is_stacked_recursion.

(* 7. simulating ANY coefficients (in particular the estimated ones) over the estimation span, from the data's own
      initial condition, with the residuals computed by the model's [residuals] (what estimate stores) and the
      exogenous data, returns the data: by induction over the periods, for every sample size N *)
Theorem C18_simulate_estimate_roundtrip (F : fieldType) (solve : solver F) (n q m k : nat)
    (A : 'M[F]_(n, n + q * n)) (B : 'M[F]_(n, m)) (c : 'M[F]_(n, k))
    (yd : nat -> 'cV[F]_n) (xd : nat -> 'cV[F]_m) (h0 : nat -> 'cV[F]_n) (N : nat) :
  let Y0 : 'M[F]_(n, N) := \matrix_(i, t) yd t i 0 in
  let Y1 : 'M[F]_(n + q * n, N) := \matrix_(i, t) stackf q.+1 (hist yd h0 t) i 0 in
  let X : 'M[F]_(m, N) := \matrix_(i, t) xd t i 0 in
  let U : 'M[F]_(n, N) := residuals (M := MC solve) (n := n) (q := q) (m := m) (k := k) A B c Y0 Y1 X (const_mx 1) in
  simulate (M := MC solve) (n := n) (q := q) (m := m) (k := k) A B c (stackf q.+1 h0)
    [seq (col t U, col t X) | t <- enum 'I_N] = [seq col t Y0 | t <- enum 'I_N].
Proof. exact: simulate_estimate_roundtrip. Qed.
Print Assumptions C18_simulate_estimate_roundtrip.

(* 8. the reported mean solves (I - A_1 - ... - A_p) mu = c, and is the rest point of the recursion *)
Theorem C18_companion_mean (F : fieldType) (solve : solver F) (n q m k : nat)
    (A : 'M[F]_(n, n + q * n)) (B : 'M[F]_(n, m)) (c : 'M[F]_(n, k)) :
  solve_contract solve ->
  let sA : 'M[F]_n := sumA (M := MC solve) A in
  (forall mu : 'cV[F]_n, A *m stackf q.+1 (fun _ => mu) = sA *m mu) /\
  (1%:M - sA \in unitmx ->
     (1%:M - sA) *m var_mean (M := MC solve) (n := n) (q := q) (k := k) A c = c *m const_mx 1) /\
  (forall mu : 'cV[F]_n, (1%:M - sA) *m mu = c *m const_mx 1 ->
     sim_step (M := MC solve) (n := n) (q := q) (m := m) (k := k) A B c (stackf q.+1 (fun _ => mu)) 0 0
     = stackf q.+1 (fun _ => mu)).
Proof.
move=> sc; split; [exact: sumA_const | split; [exact: companion_mean | exact: mean_rest_point]].
Qed.
Print Assumptions C18_companion_mean.

(* 9. eigen-structure of the companion matrix: v = (f 0; ...; f q) is an eigenvector for lambda iff the blocks are
      geometric (f i = lambda f (i+1)) and satisfy the VAR recursion; every vector is such a stack.
      _partial: that get_eigenvalues returns the eigenvalues of this matrix rests on numpy.linalg.eigvals (checked
      on every correspondence case against the exact characteristic polynomial of the model's companion matrix) *)
Theorem C18_companion_eigen_partial (F : fieldType) (solve : solver F) (n q : nat)
    (A : 'M[F]_(n, n + q * n)) (lam : F) (f : nat -> 'cV[F]_n) :
  (companion_T (M := MC solve) (n := n) (q := q) A *m stackf q.+1 f = lam *: stackf q.+1 f
   <-> (A *m stackf q.+1 f = lam *: f 0%N /\ forall i, (i < q)%N -> f i = lam *: f i.+1))
  /\ (forall v : 'cV[F]_(q.+1 * n), exists g, v = stackf q.+1 g).
Proof. by split; [exact: companion_eigen | exact: stackf_surj]. Qed.
Print Assumptions C18_companion_eigen_partial.

(* 10. autocovariances are those of the companion form.
       _partial: the Lyapunov solution Omega is a hypothesis (scipy.linalg.solve_discrete_lyapunov is a black box; its
       output is checked against the model's companion system in exact arithmetic on every correspondence case) *)
Theorem C18_acov_companion_partial (F : fieldType) (solve : solver F) (n q : nat)
    (A : 'M[F]_(n, n + q * n)) (S : 'M[F]_n) (Om : 'M[F]_(n + q * n, n + q * n)) :
  let T : 'M[F]_(n + q * n, n + q * n) := companion_T (M := MC solve) (n := n) (q := q) A in
  (forall upto j : nat, (j <= upto)%N ->
     nth 0 (acov_from (M := MC solve) (n := n) (q := q) T Om upto) j
     = topleft (M := MC solve) (n := n) (q := q) (iter j (mulmx T) Om)) /\
  (forall Z : 'M[F]_(n + q * n, n + q * n), topleft (M := MC solve) (n := n) (q := q) (T *m Z) = A *m lsubmx Z) /\
  (Om = T *m Om *m T^T + companion_sigma (M := MC solve) (n := n) (q := q) S ->
     topleft (M := MC solve) (n := n) (q := q) Om = A *m Om *m A^T + S).
Proof.
move=> T; split; [exact: acov_from_nth | split; [exact: topleft_T|]].
by move=> e; apply: acov0_yule_walker; rewrite /lyap_residual /= -e subrr.
Qed.
Print Assumptions C18_acov_companion_partial.

(* 10b. the scalar formulas regenerated from the source on this run (Dimensions properties, degrees-of-freedom
        subtrahend, number of dummy observations of the two priors, position of A inside beta, default residual)
        are the ones the model and the statements above assume.  The matrix fragments gen_ols, gen_residuals,
        gen_cov_residuals, gen_symmetrize are used directly as the model's definitions. *)
Theorem C18_generated_formulas (n p m : nat) (ic dof : bool) :
  gen_dimension_fields = ("num_endogenous" :: "order" :: "has_intercept" :: "num_exogenous" :: nil)%string /\
  gen_num_nonendogenous n p ic m = (m + PeanoNat.Nat.b2n ic)%coq_nat /\
  gen_num_lagged_endogenous n p ic m = (n * p)%coq_nat /\
  gen_num_rhs n p ic m = (n * p + (m + PeanoNat.Nat.b2n ic))%coq_nat /\
  gen_split_a_end n p ic m = (n * p)%coq_nat /\
  gen_dof_subtrahend n p ic m dof = (if dof then (m + PeanoNat.Nat.b2n ic)%coq_nat else 0%N) /\
  gen_minnesota_num_obs n p ic m = (n * p)%coq_nat /\
  gen_mean_num_obs n p ic m = PeanoNat.Nat.b2n ic /\
  gen_default_residual_is_zero = true.
Proof. by do !split. Qed.
Print Assumptions C18_generated_formulas.

(* 11. data layer, any value type with a finiteness test: the fitted positions are, in increasing order, exactly the
       columns on which the current observation, all p lags of every endogenous variable and every exogenous
       variable are finite; row i*n+v of the lag stack is lag i+1 of variable v *)
Theorem C18_mask_exact (T : Type) (fin : T -> bool) (one dflt : T) (p k N : nat) (ys xs : list (list T)) :
  (forall r, List.In r ys -> List.length r = (p + N)%coq_nat) ->
  (forall r, List.In r xs -> List.length r = (p + N)%coq_nat) ->
  ys <> nil -> fin one = true ->
  let idx := true_positions 0 (ed_where (estimation_data T fin one dflt p k true ys xs)) in
  Sorted.StronglySorted lt idx /\
  forall j, List.In j idx <->
    (j < N)%coq_nat /\
    (forall r i, List.In r ys -> (i <= p)%coq_nat -> fin (List.nth (p + j - i)%coq_nat r dflt) = true) /\
    (forall r, List.In r xs -> fin (List.nth (p + j)%coq_nat r dflt) = true).
Proof.
move=> Hy Hx Hne Hone idx; split; first exact: true_positions_sorted.
have [_ [Hlen Hm]] := mask_exact T fin one dflt p k N ys xs Hy Hx Hne Hone.
move=> j; rewrite /idx true_positions_spec PeanoNat.Nat.sub_0_r Hlen; split.
- by case=> _ [Hj Hn]; split=> //; apply/Hm.
- by case=> Hj H; split; [exact: le_0_n | split=> //; apply/Hm].
Qed.
Print Assumptions C18_mask_exact.

Theorem C18_lag_stacking (T : Type) (dflt : T) (p N : nat) (ys : list (list T)) (i v j : nat) :
  (forall r, List.In r ys -> List.length r = (p + N)%coq_nat) ->
  (i < p)%coq_nat -> (v < List.length ys)%coq_nat -> (j < N)%coq_nat ->
  List.nth j (List.nth (i * List.length ys + v)%coq_nat (stack_y1 T p ys) nil) dflt
  = List.nth (p + j - S i)%coq_nat (List.nth v ys nil) dflt
  /\ List.nth j (List.nth v (stack_y0 T p ys) nil) dflt = List.nth (p + j)%coq_nat (List.nth v ys nil) dflt.
Proof. by move=> H1 H2 H3 H4; split; [exact: (@stack_y1_nth T dflt p N ys i v j H1 H2 H3 H4) | exact: stack_y0_nth]. Qed.
Print Assumptions C18_lag_stacking.

(* 12. "its reported ... eigenvalues ... are those of its companion form": what get_max_abs_eigenvalue and get_stability
       report (model/Spectral.v, defined in terms of gen_max_abs_eigenvalue / gen_is_stable regenerated from
       Variant._populate_eigenvalues / is_stable on this run) for ANY list of eigenvalues of any length and order, over any
       type C of complex numbers with any modulus function into any totally pre-ordered type T ([leb] is <=):
       the reported maximum is the modulus of one of the eigenvalues and no eigenvalue has a larger modulus (the spectral
       radius), it does not depend on the order in which eigvals returns the eigenvalues, and the verdict is "stable"
       exactly when every eigenvalue has modulus < 1, "unstable" exactly when one has modulus >= 1.
       numpy.linalg.eigvals itself is a black box (the list [eigs]); the correspondence checks its output against the
       exact characteristic polynomial of the model's companion matrix on every case. *)
Theorem C18_max_abs_eigenvalue_is_spectral_radius (C T : Type) (modulus : C -> T) (leb : T -> T -> bool)
    (of_nat : nat -> T) (cmax : list C -> C)
    (leb_total : forall a b, leb a b = false -> leb b a = true)
    (leb_trans : forall a b c, leb a b = true -> leb b c = true -> leb a c = true) (eigs : list C) :
  eigs <> nil ->
  exists r, Spectral.max_abs_eigenvalue modulus leb of_nat cmax eigs = Some r
    /\ (exists z, List.In z eigs /\ r = modulus z)
    /\ (forall z, List.In z eigs -> leb (modulus z) r = true).
Proof. exact: SpectralProofs.max_abs_eigenvalue_is_spectral_radius. Qed.
Print Assumptions C18_max_abs_eigenvalue_is_spectral_radius.

Theorem C18_max_abs_eigenvalue_order_independent (C T : Type) (modulus : C -> T) (leb : T -> T -> bool)
    (of_nat : nat -> T) (cmax : list C -> C)
    (leb_total : forall a b, leb a b = false -> leb b a = true)
    (leb_trans : forall a b c, leb a b = true -> leb b c = true -> leb a c = true) (eigs eigs' : list C) (r r' : T) :
  Permutation.Permutation eigs eigs' ->
  Spectral.max_abs_eigenvalue modulus leb of_nat cmax eigs = Some r ->
  Spectral.max_abs_eigenvalue modulus leb of_nat cmax eigs' = Some r' ->
  leb r r' = true /\ leb r' r = true.
Proof. exact: SpectralProofs.max_abs_eigenvalue_perm. Qed.
Print Assumptions C18_max_abs_eigenvalue_order_independent.

Theorem C18_stability_verdict (C T : Type) (modulus : C -> T) (leb : T -> T -> bool)
    (of_nat : nat -> T) (cmax : list C -> C)
    (leb_total : forall a b, leb a b = false -> leb b a = true)
    (leb_trans : forall a b c, leb a b = true -> leb b c = true -> leb a c = true) (eigs : list C) :
  (Spectral.is_stable modulus leb of_nat cmax eigs = Some true
     <-> eigs <> nil /\ forall z, List.In z eigs -> Spectral.ltb leb (modulus z) (of_nat 1%N) = true)
  /\ (Spectral.is_stable modulus leb of_nat cmax eigs = Some false
     <-> exists z, List.In z eigs /\ leb (of_nat 1%N) (modulus z) = true)
  /\ (Spectral.is_stable modulus leb of_nat cmax eigs = None <-> eigs = nil).
Proof. exact: SpectralProofs.stability_verdict. Qed.
Print Assumptions C18_stability_verdict.

(* one entry per variant, computed from that variant's eigenvalues alone *)
Theorem C18_spectral_accessors_per_variant (C T : Type) (modulus : C -> T) (leb : T -> T -> bool)
    (of_nat : nat -> T) (cmax : list C -> C) (variants : list (list C)) (i : nat) :
  List.nth i (Spectral.get_max_abs_eigenvalue modulus leb of_nat cmax variants) None
    = Spectral.max_abs_eigenvalue modulus leb of_nat cmax (List.nth i variants nil)
  /\ List.nth i (Spectral.get_stability modulus leb of_nat cmax variants) None
    = Spectral.is_stable modulus leb of_nat cmax (List.nth i variants nil)
  /\ List.nth i (Spectral.get_eigenvalues variants) nil = List.nth i variants nil
  /\ List.length (Spectral.get_max_abs_eigenvalue modulus leb of_nat cmax variants) = List.length variants
  /\ List.length (Spectral.get_stability modulus leb of_nat cmax variants) = List.length variants.
Proof.
rewrite /Spectral.get_max_abs_eigenvalue /Spectral.get_stability /Spectral.get_eigenvalues !List.map_length.
do !split.
- exact: (List.map_nth (Spectral.max_abs_eigenvalue modulus leb of_nat cmax) variants nil).
- exact: (List.map_nth (Spectral.is_stable modulus leb of_nat cmax) variants nil).
- exact: (List.map_nth (@Spectral.reported_eigenvalues C) variants nil).
Qed.
Print Assumptions C18_spectral_accessors_per_variant.

(* an order embedding f (on a domain P closed under max) commutes with the maximum: the maximum of the squared moduli
   re^2 + im^2 computed by the executable instance in exact rationals is the square of the maximum modulus *)
Theorem C18_max_commutes_with_order_embedding (T T' : Type) (leb : T -> T -> bool) (leb' : T' -> T' -> bool)
    (f : T -> T') (P : T -> Prop)
    (f_embeds : forall a b, P a -> P b -> leb a b = leb' (f a) (f b)) (l : list T) (x : T) :
  P x -> List.Forall P l -> f (Spectral.max_of leb x l) = Spectral.max_of leb' (f x) (List.map f l).
Proof. exact: SpectralProofs.max_of_embedding. Qed.
Print Assumptions C18_max_commutes_with_order_embedding.

(* non-vacuity: the rationals with squared moduli satisfy the hypotheses (total, transitive, squaring embeds the
   non-negative rationals).  The two shapes in which "largest modulus" differs from "largest eigenvalue", a dominant
   negative root -5/4 (unstable) and a dominant complex pair 1/8 +- 7/8 i (stable), are evaluated on this instance by
   SpectralProofs.spectral_example_negative_root and spectral_example_complex_pair. *)
Theorem C18_spectral_hypotheses_satisfiable :
  (forall a b, SpectralProofs.Qleb a b = false -> SpectralProofs.Qleb b a = true)
  /\ (forall a b c, SpectralProofs.Qleb a b = true -> SpectralProofs.Qleb b c = true -> SpectralProofs.Qleb a c = true)
  /\ (forall a b, QArith_base.Qle (QArith_base.inject_Z BinNums.Z0) a -> QArith_base.Qle (QArith_base.inject_Z BinNums.Z0) b ->
        SpectralProofs.Qleb a b = SpectralProofs.Qleb (QArith_base.Qmult a a) (QArith_base.Qmult b b)).
Proof.
split; [exact: SpectralProofs.Qleb_total | split; [exact: SpectralProofs.Qleb_trans | exact: SpectralProofs.Qsquare_embeds]].
Qed.
Print Assumptions C18_spectral_hypotheses_satisfiable.
