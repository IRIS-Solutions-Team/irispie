(* C06  Nonlinear simulations satisfy the equations; match first order when linear.
   The lemmas behind the proofs are in proofs/StackedProofs.v (frames, unknown cells, stacking, write-back, linear
   models) and proofs/SimReportProofs.v (failure report, dataslate rows).
   The models are model/Frames.v and model/Stacked.v; fr_*, prune_skipped, jac_lhs_row, stack_equation_fastest,
   term_* come from gen/FramesGen.v, regenerated from frames.py, stacked_time/_jacobians.py, _evaluators.py and
   fords/terminators.py on every run.  The Newton solver, the AD Jacobian values (C02) and the first-order solution
   (C01) are contracts: they enter as oracles / hypotheses. *)
From Coq Require Import ZArith List Bool Sorted Reals Lia Lra.
From Verif Require Import gen.FramesGen model.Frames model.Stacked proofs.StackedProofs.
Import ListNotations.
Open Scope Z_scope.

(* 0. the periods of the data array: the base span extended by the deepest lag and lead of ANY quantity (endogenous
      or exogenous variable, shock); every cell an equation can read has a valid non-negative column *)
Theorem C06_extended_periods_cover : forall b0 b1 lo hi p s,
  b0 <= p <= b1 -> lo <= s <= hi ->
  let ps := extended_periods b0 b1 lo hi in
  In (p + s) ps
  /\ 0 <= column_of (b0 + lo) (p + s) < Z.of_nat (length ps)
  /\ nth (Z.to_nat (column_of (b0 + lo) (p + s))) ps 0 = p + s.
Proof.
  intros b0 b1 lo hi p s Hp Hs ps. unfold ps, extended_periods, column_of.
  split; [apply zrange_In; lia |].
  unfold zrange. rewrite zrange_from_length. split; [lia |].
  rewrite zrange_from_nth by lia. lia.
Qed.
Print Assumptions C06_extended_periods_cover.

(* 1. frames: for EVERY span length n, first period a, break-point vector bp (first entry set, as
      _populate_base_break_points does) and simulation-end rule se, the frames partition the base span in order,
      start exactly at the break points, are non-empty, and the first one starts at the first base period *)
Theorem C06_frames_tile : forall se n a bp,
  (0 < n)%nat -> length bp = n -> hd false bp = true ->
  let ps := zrange_from a n in
  let frs := split_frames se bp ps in
  concat (map frame_cover frs) = ps
  /\ map f_start frs = break_periods bp ps
  /\ Forall (fun f => f_start f <= f_end f
                      /\ a <= f_start f < a + Z.of_nat n
                      /\ nth (Z.to_nat (f_start f - a)) bp false = true
                      /\ f_sim_end f = se (f_start f) (f_end f)) frs
  /\ hd_error (map f_start frs) = Some a.
Proof. exact frames_tile. Qed.
Print Assumptions C06_frames_tile.

(* the break-point vector the stacked-time simulator builds: a column is a break point iff it is the first one,
   or some unanticipated shock is finite and non-zero there, or the plan endogenizes an unanticipated shock there;
   it has the length of the base span and its first entry set, so C06_frames_tile applies to it *)
Theorem C06_update_break_points_spec : forall V (nz : V -> bool) bp arr,
  Forall (fun r => length r = length bp) arr ->
  length (update_break_points nz bp arr) = length bp
  /\ forall k, nth k (update_break_points nz bp arr) false
               = nth k bp false || existsb (fun r => nth k (map nz r) false) arr.
Proof. exact update_break_points_spec. Qed.
Print Assumptions C06_update_break_points_spec.

Theorem C06_break_points_wf : forall V (nz : V -> bool) n ucut pcut,
  (0 < n)%nat ->
  match ucut with Some a => Forall (fun r => length r = n) a | None => True end ->
  match pcut with Some a => Forall (fun r => length r = n) a | None => True end ->
  length (populate_base_break_points nz n ucut pcut) = n
  /\ hd false (populate_base_break_points nz n ucut pcut) = true.
Proof.
  intros V nz n ucut pcut Hn Hu Hp. unfold populate_base_break_points.
  assert (B0 : length (initial_break_points n) = n /\ hd false (initial_break_points n) = true).
  { destruct n; [lia |]. simpl. rewrite repeat_length. auto. }
  destruct pcut as [p |]; [apply update_break_points_wf; [exact Hp |] |];
    (destruct ucut as [u |]; [apply update_break_points_wf; [exact Hu |] |]); exact B0.
Qed.
Print Assumptions C06_break_points_wf.

(* 2. period by period = one single-period frame per base period, one column to run, nothing pruned *)
Theorem C06_pbp_is_single_period_frames : forall n a, (0 < n)%nat ->
  pbp_frames (zrange_from a n) = map (fun p => mkFrame p p p) (zrange_from a n).
Proof. exact pbp_is_single_period_frames. Qed.
Print Assumptions C06_pbp_is_single_period_frames.

Theorem C06_single_period_frame : forall (V : Type) (zero : V) uq fcp p d,
  let f := mkFrame p p p in
  columns_to_run fcp f = [p - fcp]
  /\ f_first fcp f = f_last fcp f /\ f_last fcp f = f_sim_last fcp f
  /\ prune zero uq fcp f d = d.
Proof.
  intros. unfold columns_to_run, f_first, f_last, f_sim_last, prune, f,
    fr_first, fr_last, fr_simulation_last, prune_skipped, zrange. simpl.
  rewrite Z.eqb_refl. replace (p - fcp + 1 - (p - fcp)) with 1 by lia. repeat split; auto.
Qed.
Print Assumptions C06_single_period_frame.

(* 3. unknown cells = endogenous x columns, minus exogenized, plus endogenized; strictly sorted (no cell twice);
      as many unknowns as stacked equations iff as many exogenized as endogenized cells *)
Theorem C06_wrt_spots_algebra : forall p cols qids,
  let base := base_spots cols qids in
  let exog := exogenized_spots p cols in
  let endog := endogenized_spots p cols in
  let wrt := wrt_spots (Some p) cols qids in
  (forall s, In s wrt <-> (In s base /\ ~ In s exog) \/ In s endog)
  /\ StronglySorted slt wrt /\ NoDup wrt
  /\ (NoDup cols -> NoDup qids -> incl exog base -> (forall s, In s endog -> ~ In s base) ->
      forall neq, length qids = neq ->
      (length wrt = (neq * length cols)%nat <-> length (sort_spots exog) = length (sort_spots endog))).
Proof. exact wrt_spots_algebra. Qed.
Print Assumptions C06_wrt_spots_algebra.

Theorem C06_wrt_spots_no_plan : forall cols qids,
  wrt_spots None cols qids = base_spots cols qids
  /\ length (wrt_spots None cols qids) = (length qids * length cols)%nat.
Proof. intros. split; auto. simpl. rewrite base_spots_length. lia. Qed.
Print Assumptions C06_wrt_spots_no_plan.

(* 4. stacking: (equation, column index) <-> position in the stacked residual is a bijection, and the stacked
      vector carries equation e at column index j at position e + neq*j *)
Theorem C06_stack_index_bijection : forall neq ncols, 0 < neq ->
  (forall e j, 0 <= e < neq -> 0 <= j < ncols ->
     0 <= stack_index neq e j < neq * ncols
     /\ stack_index neq e j mod neq = e /\ stack_index neq e j / neq = j)
  /\ (forall i, 0 <= i < neq * ncols ->
        0 <= i mod neq < neq /\ 0 <= i / neq < ncols /\ stack_index neq (i mod neq) (i / neq) = i).
Proof.
  intros neq ncols Hn. split.
  - intros e j He Hj. rewrite stack_index_spec. repeat split.
    + nia.
    + nia.
    + rewrite Z.mul_comm, Z_mod_plus_full. apply Z.mod_small. lia.
    + rewrite Z.mul_comm, Z_div_plus_full by lia. rewrite Z.div_small by lia. lia.
  - intros i Hi. rewrite stack_index_spec.
    assert (H1 := Z.mod_pos_bound i neq Hn).
    assert (H2 := Z.div_mod i neq ltac:(lia)).
    repeat split; try lia.
    + apply Z.div_pos; lia.
    + apply Z.div_lt_upper_bound; lia.
Qed.
Print Assumptions C06_stack_index_bijection.

(* 5. max-norm success <=> every transition equation in every simulated column is within tolerance, evaluated on
      the frame's data with the solution written on the unknown cells and the cells beyond the last simulated
      column as produced by the terminal operator in force (any operator: identity for terminal="data") *)
Theorem C06_stacked_zero_iff_all_zero : forall eqs term cols D spots x tol, (0 < tol)%R ->
  (max_norm (stacked_residual eqs term cols D spots x) < tol)%R <->
  (forall e j, (e < length eqs)%nat -> (j < length cols)%nat ->
     (Rabs (nth e eqs (fun _ _ => 0%R) (term (upd D spots x)) (nth j cols 0%Z)) < tol)%R).
Proof. exact stacked_zero_iff_all_zero. Qed.
Print Assumptions C06_stacked_zero_iff_all_zero.

Theorem C06_stacked_residual_nth : forall eqs term cols D spots x e j,
  (e < length eqs)%nat -> (j < length cols)%nat ->
  nth (e + length eqs * j) (stacked_residual eqs term cols D spots x) 0%R =
  nth e eqs (fun _ _ => 0%R) (term (upd D spots x)) (nth j cols 0%Z).
Proof. intros. unfold stacked_residual. rewrite stack_nth by auto. reflexivity. Qed.
Print Assumptions C06_stacked_residual_nth.

(* the first-order terminal cells of the model lie beyond the last simulated column, in current-dated rows *)
Theorem C06_terminal_cells_beyond_last : forall qids last max_lead q c,
  fo_cells qids last max_lead q c = true -> last < c <= last + max_lead /\ In q qids.
Proof.
  intros qids last max_lead q c H. unfold fo_cells in H. apply andb_true_iff in H. destruct H as [Hq Hc].
  apply zmem_In in Hq. apply zmem_In in Hc.
  unfold terminal_columns, term_columns_range, term_first_terminal in Hc. simpl in Hc.
  apply zrange_In in Hc. split; auto. lia.
Qed.
Print Assumptions C06_terminal_cells_beyond_last.

(* 6. write-back and frame conditions (any cell type, any array shape, any solver output) *)
Theorem C06_write_back_spec : forall (V : Type) (dflt : V) uq fcp f main fdata q c,
  get dflt (write_back dflt uq fcp f main fdata) q c =
  if written_back uq fcp f q c && inb main q c then get dflt fdata q c else get dflt main q c.
Proof. exact @write_back_spec. Qed.
Print Assumptions C06_write_back_spec.

Theorem C06_writeback_frame : forall (V : Type) (dflt : V) uq fcp f main fdata q c,
  f_first fcp f <= f_last fcp f ->
  (c < f_first fcp f \/ f_last fcp f < c) ->
  get dflt (write_back dflt uq fcp f main fdata) q c = get dflt main q c.
Proof. exact @writeback_frame. Qed.
Print Assumptions C06_writeback_frame.

Theorem C06_writeback_unanticipated_rows : forall (V : Type) (dflt : V) uq fcp f main fdata q c,
  zmem q uq = true -> c <> f_first fcp f ->
  get dflt (write_back dflt uq fcp f main fdata) q c = get dflt main q c.
Proof.
  intros V dflt uq fcp f main fdata q c H Hc. rewrite write_back_spec. unfold written_back. rewrite H.
  destruct (Z.eqb_spec c (f_first fcp f)); [contradiction | reflexivity].
Qed.
Print Assumptions C06_writeback_unanticipated_rows.

Theorem C06_prune_spec : forall (V : Type) (dflt zero : V) uq fcp f d q c,
  get dflt (prune zero uq fcp f d) q c =
  if negb (f_start f =? f_sim_end f) && zmem q uq && (f_first fcp f + 1 <=? c) && inb d q c
  then zero else get dflt d q c.
Proof. exact @prune_spec. Qed.
Print Assumptions C06_prune_spec.

Theorem C06_frame_after_untouched : forall (V : Type) (dflt : V) pre oracle wrt term q c,
  touched wrt term q c = false ->
  get dflt (frame_after dflt pre oracle wrt term) q c = get dflt pre q c.
Proof. exact @frame_after_untouched. Qed.
Print Assumptions C06_frame_after_untouched.

Theorem C06_update_cells_outside : forall (V : Type) (dflt : V) spots vals d q c,
  ~ In (q, c) spots -> get dflt (update_cells d spots vals) q c = get dflt d q c.
Proof. exact @update_cells_outside. Qed.
Print Assumptions C06_update_cells_outside.

Theorem C06_update_cells_at : forall (V : Type) (dflt : V) spots vals d k q c,
  NoDup spots -> length vals = length spots -> nth_error spots k = Some (q, c) -> inb d q c = true ->
  get dflt (update_cells d spots vals) q c = nth k vals dflt.
Proof.
  intros V dflt.
  induction spots as [| s ss IH]; intros vals d k q c ND L Hk Hin.
  - destruct k; discriminate.
  - destruct vals as [| v vs]; [discriminate |]. simpl in L. inversion ND; subst.
    destruct k; simpl in Hk |- *.
    + inversion Hk; subst. rewrite update_cells_outside by auto.
      rewrite get_set_cell, spot_eqb_refl, Hin. reflexivity.
    + apply IH; auto. unfold set_cell. rewrite inb_mapi2. auto.
Qed.
Print Assumptions C06_update_cells_at.

(* exogenized cells carry their input values after the frame is simulated, whatever the solver returns *)
Theorem C06_exogenized_untouched : forall (V : Type) (dflt zero : V) S input main f oracle q c,
  In (q, c) (frame_exog S f) ->
  touched (frame_wrt S f) (frame_term S f) q c = false ->
  inb main q c = true ->
  get dflt (fst (step_frame dflt zero S input main f oracle)) q c = get dflt input q c.
Proof. exact @exogenized_untouched. Qed.
Print Assumptions C06_exogenized_untouched.

Theorem C06_exogenized_not_unknown : forall p cols qids s,
  In s (exogenized_spots p cols) -> ~ In s (endogenized_spots p cols) ->
  ~ In s (wrt_spots (Some p) cols qids).
Proof. intros p cols qids s He Hn Hw. unfold wrt_spots in Hw. apply swap_spots_In in Hw. tauto. Qed.
Print Assumptions C06_exogenized_not_unknown.

(* the whole frame loop, any number of frames, any solver outputs: columns outside the base columns never change *)
Theorem C06_run_frames_outside : forall (V : Type) (dflt zero : V) S input frames oracles main b0 b1 q c,
  Forall (fun f => b0 <= f_first (s_fcp S) f /\ f_first (s_fcp S) f <= f_last (s_fcp S) f
                   /\ f_last (s_fcp S) f <= b1) frames ->
  (c < b0 \/ b1 < c) ->
  get dflt (snd (run_frames dflt zero S input main frames oracles)) q c = get dflt main q c.
Proof.
  intros V dflt zero S input frames oracles main b0 b1 q c HF Hc. apply run_frames_kept.
  eapply Forall_impl; [| exact HF]. intros f [H1 [H2 H3]]. left. apply written_back_outside; lia.
Qed.
Print Assumptions C06_run_frames_outside.

(* rows that no frame's solver owns, that are not exogenized and are not unanticipated-shock rows (measurement
   variables, exogenous variables, parameters) keep their input values through the whole frame loop *)
Theorem C06_rows_left_as_input : forall (V : Type) (dflt zero : V) S input frames oracles main q c,
  zmem q (s_uqids S) = false ->
  Forall (fun f => (forall c', touched (frame_wrt S f) (frame_term S f) q c' = false)
                   /\ (forall c', ~ In (q, c') (frame_exog S f))) frames ->
  get dflt (snd (run_frames dflt zero S input main frames oracles)) q c = get dflt main q c.
Proof.
  intros V dflt zero S input frames oracles main q c Hu HF. apply run_frames_kept.
  eapply Forall_impl; [| exact HF]. intros f [Ht He]. right. auto.
Qed.
Print Assumptions C06_rows_left_as_input.

(* every entry of the Jacobian map lies in the stacked row of (its equation, its column index) -- the row of the
   residual of that equation in that column -- and in the column of the unknown Token(qid, shift + column) *)
Theorem C06_jacobian_map_rows : forall wrt_tokens cols lhs r c rr rc,
  In (r, c, rr, rc) (jac_map wrt_tokens cols lhs) ->
  exists de toks tok col,
    nth_error wrt_tokens de = Some toks /\ In tok toks /\ nth_error cols (Z.to_nat rc) = Some col /\ 0 <= rc
    /\ r = stack_index (Z.of_nat (length wrt_tokens)) (0 + Z.of_nat de) rc
    /\ index_last (fst tok, snd tok + col) lhs = Some c.
Proof. intros wrt_tokens cols lhs r c rr rc. exact (jac_map_from_spec _ wrt_tokens 0 0 cols lhs r c rr rc). Qed.
Print Assumptions C06_jacobian_map_rows.

Theorem C06_index_last_spec : forall s l r, index_last s l = Some r ->
  0 <= r < Z.of_nat (length l) /\ nth (Z.to_nat r) l (r, r) = s.
Proof.
  intros s l r H. unfold index_last in H. apply index_last_from_spec in H.
  destruct H as [[H _] | [H1 H2]]; [discriminate |].
  rewrite Z.sub_0_r in H2. split; [lia | exact H2].
Qed.
Print Assumptions C06_index_last_spec.

(* 7. linear models.  For affine equations and an affine terminal operator (identity, or the first-order
      continuation of the last columns), with the first-order path P as contract from C01
      (it satisfies every equation in every simulated column with leads read through the terminal operator, and it
      carries the same inputs off the unknown cells):
      (a) P is a zero of the stacked system and passes the solver's test;
      (b) the stacked system is affine in the unknowns;
      (c) if its linear part (the stacked Jacobian) is non-singular, every exact zero equals P: same results. *)
Theorem C06_first_order_is_zero : forall aeqs T cols spots (D P : darr),
  (forall e j, (e < length aeqs)%nat -> (j < length cols)%nat ->
     eval_affine (nth e aeqs ([], 0%R)) (term_affine T P) (nth j cols 0%Z) = 0%R) ->
  (forall q c, ~ In (q, c) spots -> P q c = D q c) ->
  (forall e j, (e < length aeqs)%nat -> (j < length cols)%nat ->
     residual (map eval_affine aeqs) (term_affine T) cols D spots (x_first_order spots P) e j = 0%R)
  /\ (forall tol, (0 < tol)%R ->
      (max_norm (stacked_residual (map eval_affine aeqs) (term_affine T) cols D spots (x_first_order spots P)) < tol)%R).
Proof.
  intros aeqs T cols spots D P H1 H2.
  assert (Z0 := first_order_is_zero aeqs T cols spots D P H1 H2). split; [exact Z0 |].
  intros tol Ht. apply stacked_zero_iff_all_zero; [exact Ht |]. intros e j He Hj. rewrite map_length in He.
  specialize (Z0 e j He Hj). unfold residual in Z0. rewrite Z0, Rabs_R0. exact Ht.
Qed.
Print Assumptions C06_first_order_is_zero.

Theorem C06_stacked_system_affine : forall aeqs T cols spots (D : darr) x y e j,
  (e < length aeqs)%nat ->
  (residual (map eval_affine aeqs) (term_affine T) cols D spots x e j -
   residual (map eval_affine aeqs) (term_affine T) cols D spots y e j)%R =
  stacked_linear aeqs T cols spots (fun k => (x k - y k)%R) e j.
Proof. exact residual_affine. Qed.
Print Assumptions C06_stacked_system_affine.

Theorem C06_linear_agrees : forall aeqs T cols spots (D P : darr),
  (forall e j, (e < length aeqs)%nat -> (j < length cols)%nat ->
     eval_affine (nth e aeqs ([], 0%R)) (term_affine T P) (nth j cols 0%Z) = 0%R) ->
  (forall q c, ~ In (q, c) spots -> P q c = D q c) ->
  (forall dx : nat -> R,
     (forall e j, (e < length aeqs)%nat -> (j < length cols)%nat -> stacked_linear aeqs T cols spots dx e j = 0%R) ->
     forall k, (k < length spots)%nat -> dx k = 0%R) ->
  forall x : nat -> R,
  (forall e j, (e < length aeqs)%nat -> (j < length cols)%nat ->
     residual (map eval_affine aeqs) (term_affine T) cols D spots x e j = 0%R) ->
  (forall k, (k < length spots)%nat -> x k = x_first_order spots P k)
  /\ (forall q c, upd D spots x q c = P q c).
Proof. exact linear_agrees. Qed.
Print Assumptions C06_linear_agrees.

(* non-vacuity: concrete objects meet the hypotheses *)
Example C06_linear_agrees_hypotheses_satisfiable :
  (forall e j, (e < length ex_aeqs)%nat -> (j < length [1])%nat ->
     eval_affine (nth e ex_aeqs ([], 0%R)) (term_affine ex_T ex_P) (nth j [1] 0%Z) = 0%R)
  /\ (forall q c, ~ In (q, c) [(0, 1)] -> ex_P q c = ex_D q c)
  /\ (forall dx : nat -> R,
        (forall e j, (e < length ex_aeqs)%nat -> (j < length [1])%nat ->
           stacked_linear ex_aeqs ex_T [1] [(0, 1)] dx e j = 0%R) ->
        forall k, (k < length [(0, 1)])%nat -> dx k = 0%R).
Proof.
  repeat split.
  - intros e j He Hj. simpl in He, Hj.
    assert (e = 0%nat) by lia. assert (j = 0%nat) by lia. subst.
    unfold eval_affine, term_affine, ex_T, ex_P, ex_aeqs, lin_comb, abs_comb. simpl. lra.
  - intros q c Hn. unfold ex_P, ex_D.
    destruct ((q =? 0)%Z && (c =? 1)%Z) eqn:E; auto.
    apply andb_true_iff in E. destruct E as [E1 E2]. apply Z.eqb_eq in E1, E2. subst.
    exfalso. apply Hn. left. reflexivity.
  - intros dx H k Hk. simpl in Hk. assert (k = 0%nat) by lia. subst.
    specialize (H 0%nat 0%nat ltac:(simpl; lia) ltac:(simpl; lia)).
    unfold stacked_linear, term_linear, ex_T, ex_aeqs, lin_comb, abs_comb, upd, zero_arr in H. simpl in H. lra.
Qed.

(* frames: a span of five periods with break points at the first and the fourth period *)
Example C06_frames_example :
  stacked_frames [true; false; false; true; false] (zrange_from 100 5)
  = [mkFrame 100 102 104; mkFrame 103 104 104]
  /\ pbp_frames (zrange_from 100 3) = [mkFrame 100 100 100; mkFrame 101 101 101; mkFrame 102 102 102].
Proof. split; reflexivity. Qed.

(* unknown cells: x (row 0) exogenized at column 3, shock (row 5) endogenized at column 2 *)
Example C06_wrt_spots_example :
  let p := mkPlan [(0, [false; true; false])] [(5, [true; false; false])] [] [] in
  wrt_spots (Some p) [2; 3; 4] [0; 1]
  = [(0, 2); (0, 4); (1, 2); (1, 3); (1, 4); (5, 2)]
  /\ incl (exogenized_spots p [2; 3; 4]) (base_spots [2; 3; 4] [0; 1])
  /\ (forall s, In s (endogenized_spots p [2; 3; 4]) -> ~ In s (base_spots [2; 3; 4] [0; 1])).
Proof.
  cbv zeta. split; [reflexivity |]. split.
  - intros s H. simpl in H. destruct H as [<- | []]. simpl. tauto.
  - intros s H. simpl in H. destruct H as [<- | []]. simpl. intuition congruence.
Qed.

From Verif Require Import lib.SimProg gen.SimReportGen model.SimReport proofs.SimReportProofs.

(* 8. "Whenever a simulation reports success": the report of Inlay.simulate over ANY number of variants and frames.
       sim_program, stream_add, stream_fin come from gen/SimReportGen.v (the statement shapes of the loops of
       Inlay.simulate and of the four streams of wrongdoings.py, regenerated on every run); status is the oracle of
       the per-frame exit statuses (the Newton solver).  For when_fails in {critical, error, warning} simulate()
       returns normally and without a warning iff every frame of every variant reports success ... *)
Theorem C06_simulate_reports_success_iff : forall k status nfs, k <> WSilent ->
  reports_success (simulate_report k status nfs) = true <-> all_success status nfs.
Proof.
  intros k status nfs Hk. unfold simulate_report.
  apply (report_iff_all_frames stream_add stream_fin k status sim_program sim_program_shape nfs).
  apply reporting_kinds_of_source. exact Hk.
Qed.
Print Assumptions C06_simulate_reports_success_iff.

(* ... so whatever a successful frame guarantees (C06_stacked_zero_iff_all_zero: every equation x period of the frame
   within tolerance) holds in every frame of every variant when simulate() reports success *)
Theorem C06_simulate_success_every_frame_within : forall k status nfs (within : nat -> nat -> Prop), k <> WSilent ->
  (forall v f, status v f = true -> within v f) ->
  reports_success (simulate_report k status nfs) = true ->
  forall v f, (v < length nfs)%nat -> (f < nth v nfs 0%nat)%nat -> within v f.
Proof.
  intros k status nfs within Hk Hc H. unfold simulate_report in H.
  apply (success_every_frame_within stream_add stream_fin k status sim_program sim_program_shape nfs within); auto.
  apply reporting_kinds_of_source. exact Hk.
Qed.
Print Assumptions C06_simulate_success_every_frame_within.

(* the same for every program shape with the report inside the frame loop and every reporting stream *)
Theorem C06_report_iff_all_frames : forall add_of fin_of k status p, report_in_frame_loop p = true ->
  forall nfs, reporting_kind add_of fin_of k = true ->
  reports_success (simulate_outcome add_of fin_of k status p nfs) = true <-> all_success status nfs.
Proof. exact report_iff_all_frames. Qed.
Print Assumptions C06_report_iff_all_frames.

Theorem C06_sim_program_shape : report_in_frame_loop sim_program = true
  /\ reporting_kind stream_add stream_fin default_when_fails = true.
Proof. exact (conj sim_program_shape eq_refl). Qed.
Print Assumptions C06_sim_program_shape.

(* when_fails="silent" never reports: the per-frame statuses of return_info are then the report *)
Theorem C06_silent_never_reports : forall status nfs,
  simulate_report WSilent status nfs = OReturned \/ simulate_report WSilent status nfs = ONameError.
Proof. intros. left. apply silent_never_reports. Qed.
Print Assumptions C06_silent_never_reports.

(* 9. the equations in force are the MODEL's: the dataslate row of a parameter / shock / std name, as assembled by
       _slatable_for_simulate_or_kalman_filter (slatable_blocks), the wiring of the flags of simulate()
       (sim_flag_wiring) and Variant.from_databox_variant (variant_post), all regenerated from the source: with the
       flag of the group off the row is the model's value whatever the databox holds; with it on, the databox's values
       with the model's value where the databox has nothing *)
Theorem C06_simulate_row_by_flag : forall (V : Type) (is_nan : V -> bool) (src : group -> nat -> option V) nn sim_flags g n v row,
  (n < nn)%nat -> src g n = Some v -> (forall g', g' <> g -> src g' n = None) ->
  simulate_row is_nan src nn sim_flags n row
  = if sim_flags g then map (fun x => if is_nan x then v else x) row else map (fun _ => v) row.
Proof.
  intros V is_nan src nn sim_flags g n v row Hn Hs Ho. unfold simulate_row, slate_row, assemble.
  rewrite variant_post_order.
  rewrite (row_by_flag_general V is_nan src nn (slatable_flags sim_flags) g n v Hn Hs Ho slatable_blocks row
             slatable_blocks_sound).
  unfold slatable_flags. rewrite sim_flag_wiring_id. reflexivity.
Qed.
Print Assumptions C06_simulate_row_by_flag.

Theorem C06_parameter_rows_ignore_databox : forall (V : Type) (is_nan : V -> bool) (src : group -> nat -> option V) nn sim_flags n v row row',
  (n < nn)%nat -> src GParameters n = Some v -> (forall g', g' <> GParameters -> src g' n = None) ->
  sim_flags GParameters = false -> length row = length row' ->
  simulate_row is_nan src nn sim_flags n row = simulate_row is_nan src nn sim_flags n row'
  /\ (forall c, (c < length row)%nat -> nth_error (simulate_row is_nan src nn sim_flags n row) c = Some v).
Proof.
  intros V is_nan src nn sim_flags n v row row' Hn Hs Ho Hf Hl.
  rewrite !(C06_simulate_row_by_flag V is_nan src nn sim_flags GParameters n v) by assumption. rewrite Hf.
  split.
  - revert row' Hl. induction row as [|x r IH]; destruct row' as [|y t]; simpl; intros Hl; try discriminate; [reflexivity|].
    f_equal. apply IH. congruence.
  - intros c Hc. rewrite nth_error_map. destruct (nth_error row c) eqn:E; [reflexivity|].
    apply nth_error_None in E. lia.
Qed.
Print Assumptions C06_parameter_rows_ignore_databox.

Theorem C06_default_flags : sim_default_from_data GParameters = false
  /\ sim_default_from_data GShocks = true /\ sim_default_from_data GStds = true.
Proof. exact default_parameters_not_from_data. Qed.
Print Assumptions C06_default_flags.
