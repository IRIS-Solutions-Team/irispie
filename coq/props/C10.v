(* C10  A Series is a period-indexed map: reads, writes, alignment, trim, isolation.
   Specifications of single operations are proved in place, from the lemmas of proofs/SeriesProofs.v (the map
   read off a series) and proofs/SeriesOpsProofs.v (well-formedness and trimming of every operation); those of
   statistics and moving windows are in proofs/SeriesWinProofs.v, those of fill_missing in proofs/SeriesFillProofs.v.
   Every theorem holds for EVERY scalar carrier A whose missing value is recognisable
   (miss_law), for every series, period, and history of operations. *)
From Coq Require Import ZArith List Bool Lia.
From Verif Require Import lib.Arith lib.ArithOptZ model.Series model.SeriesOps proofs.SeriesProofs proofs.SeriesOpsProofs proofs.SeriesWinProofs proofs.SeriesFillProofs.
Import ListNotations.
Open Scope Z_scope.

Definition lawful (A : Arith) : Prop := forall x : car A, is_miss A x = true -> x = miss A.

(* every state reachable by ANY history of the 18 modelled public operations is well formed
   (rectangular data; no start => no rows) *)
Theorem C10_reachable_states_well_formed : forall A, lawful A -> forall (X : ArithExt A) rs ops,
  AllWF A rs -> AllWF A (fst (run A X rs ops)).
Proof.
  intros A HA X rs ops. revert rs. induction ops as [|o ops IH]; intros rs Hrs; simpl; [assumption|].
  pose proof (step_WF A HA X rs o Hrs) as H1. destruct (step A X rs o) as [rs1 out]. simpl in H1.
  specialize (IH rs1 H1). destruct (run A X rs1 ops) as [rs2 outs]. exact IH.
Qed.
Print Assumptions C10_reachable_states_well_formed.

(* after writes, operators, lays, stacking, windows, statistics and fills the result has no all-missing
   leading or trailing period, and an all-missing result is the empty series without a start *)
Theorem C10_trimmed_after_writes_and_operators : forall A, lawful A -> forall (X : ArithExt A) rs o d s,
  AllWF A rs -> trimming_op A o = true -> exec A X rs o = (d, Ok s) -> Trimmed A s.
Proof. intros A HA X rs o d s Hrs Ht He. now apply (exec_ok A HA X rs o d s Hrs He). Qed.
Print Assumptions C10_trimmed_after_writes_and_operators.

(* the reported span covers every non-missing value *)
Theorem C10_span_covers : forall A, is_miss A (miss A) = true -> forall (s : series A) t c,
  is_miss A (cell A s t c) = false ->
  exists st en, s_start s = Some st /\ s_end A s = Some en /\ st <= t <= en.
Proof. exact span_covers. Qed.
Print Assumptions C10_span_covers.

(* a write changes exactly the addressed periods; everything else keeps its value *)
Theorem C10_write_changes_exactly_addressed : forall A, lawful A -> forall fr (s : series A) dates rows t,
  WF A s ->
  row_at A (set_data A fr s dates rows None) t
  = match last_assoc A t dates rows None with
    | Some r => bcast_row A (s_nv s) r
    | None => row_at A s t
    end.
Proof. exact row_at_set_data. Qed.
Print Assumptions C10_write_changes_exactly_addressed.

(* a read returns the stored row at the addressed periods and missing elsewhere *)
Theorem C10_read_returns_stored : forall A, lawful A -> forall fr (s : series A) dates t, WF A s ->
  row_at A (recreate A fr s dates None) t = if in_dec Z.eq_dec t dates then row_at A s t else missrow A (s_nv s).
Proof.
  intros A HA fr s dates t Hwf. unfold recreate. rewrite row_at_set_data by (try assumption; apply empty_WF). simpl.
  destruct (in_dec Z.eq_dec t dates) as [Hin|Hout].
  - rewrite (last_assoc_map A t dates (row_at A s)) by assumption.
    apply bcast_row_id. now apply row_at_length.
  - rewrite last_assoc_notin by assumption. reflexivity.
Qed.
Print Assumptions C10_read_returns_stored.

(* binary operators act period by period on the encompassing span of the aligned operands *)
Theorem C10_binop_pointwise : forall A, lawful A -> forall (f : car A -> car A -> car A) (s1 s2 s : series A),
  WF A s1 -> WF A s2 -> s_nv s1 = s_nv s2 -> (s_start s1 = None -> s_start s2 = None -> False) ->
  binop A f s1 s2 = Ok s ->
  exists lo hi, omin (s_start s1) (s_start s2) = Some lo /\ omax (s_end A s1) (s_end A s2) = Some hi /\
  WF A s /\ s_nv s = s_nv s1 /\
  forall t, row_at A s t = if (lo <=? t) && (t <=? hi) then zip_bcast A f (row_at A s1 t) (row_at A s2 t)
                          else missrow A (s_nv s1).
Proof. exact row_at_binop. Qed.
Print Assumptions C10_binop_pointwise.

(* a time shift moves values by exactly k periods *)
Theorem C10_shift_law : forall A (s : series A) k t, row_at A (shift_by A s k) t = row_at A s (t + k).
Proof. exact row_at_shift. Qed.
Print Assumptions C10_shift_law.

(* trimming never changes the map *)
Theorem C10_trim_preserves_map : forall A, lawful A -> forall (s : series A) t, WF A s ->
  row_at A (trim A s) t = row_at A s t.
Proof. exact row_at_trim. Qed.
Print Assumptions C10_trim_preserves_map.

Theorem C10_overlay_spec : forall A, lawful A -> forall (s o : series A) t, WF A s -> WF A o -> s_nv s = s_nv o ->
  row_at A (overlay_core A s o) t =
    match s_start o, s_end A o with
    | Some a, Some b => if (a <=? t) && (t <=? b) then row_at A o t else row_at A s t
    | _, _ => row_at A s t
    end.
Proof.
  intros A HA s o t Hs Ho Hnv. unfold overlay_core. rewrite row_at_trim by (try assumption; now apply set_data_WF).
  unfold span_list, s_end. destruct (s_start o) as [a|] eqn:Eo; [|reflexivity].
  pose proof (data_as_map A o a Ho Eo) as Hd. set (b := a + Z.of_nat (length (s_data o)) - 1).
  replace (a + Z.of_nat (length (s_data o))) with (b + 1) in Hd by (subst b; lia). rewrite Hd.
  apply row_at_set_range; [assumption..|]. intros u. rewrite Hnv. now apply row_at_length.
Qed.
Print Assumptions C10_overlay_spec.

Theorem C10_hstack_spec : forall A, lawful A -> forall (s1 s2 r : series A) t lo hi, WF A s1 -> WF A s2 ->
  hstack A s1 s2 = Ok r -> omin (s_start s1) (s_start s2) = Some lo -> omax (s_end A s1) (s_end A s2) = Some hi ->
  row_at A r t = if (lo <=? t) && (t <=? hi) then row_at A s1 t ++ row_at A s2 t else missrow A (s_nv s1 + s_nv s2).
Proof.
  intros A HA s1 s2 r t lo hi H1 H2 [(-> & -> & _)|(fr & lo' & hi' & -> & -> & ->)]%hstack_ok; [discriminate|].
  intros [= <-] [= <-]. rewrite row_at_build; [reflexivity|assumption|]. intros u. now apply hstack_row_length.
Qed.
Print Assumptions C10_hstack_spec.

Theorem C10_clip_spec : forall A (s r : series A) a b st en t, WF A s -> s_start s = Some st -> s_end A s = Some en ->
  clip A s a b = Ok r ->
  row_at A r t = if (clip_lo a st <=? t) && (t <=? clip_hi b en) then row_at A s t else missrow A (s_nv s).
Proof.
  intros A s r a b st en t Hwf Es Ee. unfold clip. rewrite Es, Ee. fold (clip_lo a st) (clip_hi b en).
  set (ns := clip_lo a st). set (ne := clip_hi b en). intros H.
  destruct (andb (ns =? st) (ne =? en)) eqn:E.
  - injection H as <-. destruct (andb (ns <=? t) _) eqn:E3; [reflexivity|]. eapply row_at_outside; eauto. lia.
  - injection H as <-. apply row_at_map_zrange.
Qed.
Print Assumptions C10_clip_spec.

(* scalar operators / element-wise functions that keep missing values missing act cell by cell *)
Theorem C10_elementwise_spec : forall A, lawful A -> forall f (s : series A) t, WF A s -> f (miss A) = miss A ->
  row_at A (map_data A f s) t = map f (row_at A s t).
Proof.
  intros A HA f s t Hwf Hf. unfold map_data. rewrite row_at_trim by (assumption || now apply map_notrim_WF).
  unfold row_at. simpl.
  assert (Hm : map f (missrow A (s_nv s)) = missrow A (s_nv s)).
  { unfold missrow. induction (s_nv s); simpl; [reflexivity|]. now rewrite Hf, IHn. }
  destruct (s_start s); [|now rewrite Hm]. destruct (_ <? _); [now rewrite Hm|].
  rewrite <- Hm at 1. apply map_nth.
Qed.
Print Assumptions C10_elementwise_spec.

(* non-vacuity: a lawful carrier exists and concrete registers satisfy the hypotheses *)
Example C10_lawful_carrier_exists :
  lawful OZArith /\ is_miss OZArith (miss OZArith) = true /\
  AllWF OZArith [mkSeries (A:=OZArith) 4 (Some 8000) 2 [[Some 1; None]; [None; None]; [Some 3; Some 4]];
                 empty_series OZArith 1].
Proof.
  split; [exact OZ_miss_law|]. split; [reflexivity|].
  repeat constructor; simpl; discriminate.
Qed.

(* a lawful carrier with the extra operations, for the non-vacuity examples *)
Definition OZX : ArithExt OZArith :=
  mkExt OZArith (option_map Z.abs) (fun x => x)
    (fun a b => match a, b with Some x, Some y => x <? y | _, _ => false end)
    (fun a b => match a, b with Some x, Some y => x =? y | _, _ => false end).
Definition oz_demo : series OZArith :=
  mkSeries (A:=OZArith) 4 (Some 8000) 2 [[Some 1; Some 5]; [Some 2; None]; [None; None]; [Some 4; Some 7]].

(* sum/mean/prod/max/min and their nan-variants: inside the span the statistic of the period's row, a
   missing value outside *)
Theorem C10_statistic_spec : forall A, lawful A -> forall (X : ArithExt A) k (s : series A) t, WF A s ->
  row_at A (statistic A X k s) t
  = if in_span A s t then [stat_value A X k (row_at A s t)] else missrow A 1.
Proof. exact statistic_spec. Qed.
Print Assumptions C10_statistic_spec.
Example C10_statistic_nonvacuous :
  WF OZArith oz_demo /\ row_at OZArith (statistic OZArith OZX StNanSum oz_demo) 8001 = [Some 2]
  /\ row_at OZArith (statistic OZArith OZX StSum oz_demo) 8003 = [Some 11]
  /\ row_at OZArith (statistic OZArith OZX StNanSum oz_demo) 8004 = [None].
Proof. split; [repeat constructor; simpl; discriminate|]. repeat split; reflexivity. Qed.

(* mov_sum / mov_avg / mov_prod with a window of k periods: at every period t of the span, variant c holds
   the left-to-right sum (mean, product) of x(t-k+1), ..., x(t) (periods before the start count as missing);
   outside the span the result is missing *)
Theorem C10_moving_spec : forall A, lawful A -> forall m k (s r : series A) t, WF A s -> moving A m k s = Ok r ->
  row_at A r t
  = if in_span A s t then map (fun c => mov_value A m k (window_at A s t k c)) (seq 0 (s_nv s))
    else missrow A (s_nv s).
Proof. exact moving_spec. Qed.
Print Assumptions C10_moving_spec.
Example C10_moving_nonvacuous :
  moving OZArith MovSum 2 oz_demo
    = Ok (mkSeries (A:=OZArith) 4 (Some 8001) 2 [[Some 3; None]])
  /\ window_at OZArith oz_demo 8001 2 0 = [Some 1; Some 2]
  /\ mov_value OZArith MovSum 2 [Some 1; Some 2] = Some 3.
Proof. repeat split; reflexivity. Qed.

(* the window value is missing as soon as one member of the window is missing, for every carrier whose
   +, * and / propagate the missing value (IEEE NaN does; so does option Z) *)
Theorem C10_moving_missing_member : forall A m k (w : list (car A)) x,
  propagates A (add A) -> propagates A (mul A) ->
  (forall a b, is_miss A a = true -> is_miss A (div A a b) = true) ->
  In x w -> is_miss A x = true -> is_miss A (mov_value A m k w) = true.
Proof. exact mov_value_missing. Qed.
Print Assumptions C10_moving_missing_member.
Example C10_moving_missing_nonvacuous :
  propagates OZArith (add OZArith) /\ propagates OZArith (mul OZArith) /\
  (forall a b, is_miss OZArith a = true -> is_miss OZArith (div OZArith a b) = true).
Proof.
  repeat split; intros [x|] [y|]; simpl; intros H; try reflexivity; discriminate.
Qed.

(* fill_missing over a contiguous range a..b of periods: span = None works on the whole series, an explicit
   span on the given range.  fill_dates is the list of periods the code works on. *)

(* periods outside the filled range keep their values *)
Theorem C10_fill_outside_untouched : forall A, lawful A -> forall fr k span (s : series A) a b t, WF A s ->
  fill_dates A span s = zrange a (b + 1) -> ~ (a <= t <= b) ->
  row_at A (fill_missing A fr k span s) t = row_at A s t.
Proof. exact fill_missing_outside. Qed.
Print Assumptions C10_fill_outside_untouched.

(* constant: missing cells of the range take the constant, observed cells keep their value *)
Theorem C10_fill_constant_spec : forall A, lawful A -> forall fr span (s : series A) a b, WF A s ->
  fill_dates A span s = zrange a (b + 1) -> forall v t c, a <= t <= b -> (c < s_nv s)%nat ->
  cell A (fill_missing A fr (FillConst A v) span s) t c
  = if is_miss A (cell A s t c) then v else cell A s t c.
Proof. exact fill_const_spec. Qed.
Print Assumptions C10_fill_constant_spec.

(* previous: a cell of the range takes the last observed value at or before t inside the range (its own value
   when it is observed: u = t), and is missing when there is none *)
Theorem C10_fill_previous_spec : forall A, lawful A -> forall fr span (s : series A) a b, WF A s ->
  fill_dates A span s = zrange a (b + 1) -> forall t c, a <= t <= b -> (c < s_nv s)%nat ->
  let r := cell A (fill_missing A fr (FillPrev A) span s) t c in
  (forall u, a <= u <= t -> is_miss A (cell A s u c) = false ->
     (forall w, u < w <= t -> is_miss A (cell A s w c) = true) -> r = cell A s u c) /\
  ((forall u, a <= u <= t -> is_miss A (cell A s u c) = true) -> r = miss A).
Proof. exact fill_previous_spec. Qed.
Print Assumptions C10_fill_previous_spec.

(* next: a cell of the range takes the first observed value at or after t inside the range, missing when none *)
Theorem C10_fill_next_spec : forall A, lawful A -> forall fr span (s : series A) a b, WF A s ->
  fill_dates A span s = zrange a (b + 1) -> forall t c, a <= t <= b -> (c < s_nv s)%nat ->
  let r := cell A (fill_missing A fr (FillNext A) span s) t c in
  (forall u, t <= u <= b -> is_miss A (cell A s u c) = false ->
     (forall w, t <= w < u -> is_miss A (cell A s w c) = true) -> r = cell A s u c) /\
  ((forall u, t <= u <= b -> is_miss A (cell A s u c) = true) -> r = miss A).
Proof. exact fill_next_spec. Qed.
Print Assumptions C10_fill_next_spec.

(* non-vacuity: the range hypothesis holds for the whole series and for an explicit range, and the three
   methods give the documented values on a concrete series *)
Example C10_fill_nonvacuous :
  (forall (s : series OZArith) st en, s_start s = Some st -> s_end OZArith s = Some en ->
     fill_dates OZArith None s = zrange st (en + 1)) /\
  (forall (s : series OZArith) a b, fill_dates OZArith (Some (zrange a (b + 1))) s = zrange a (b + 1)) /\
  WF OZArith oz_demo /\ fill_dates OZArith None oz_demo = zrange 8000 (8003 + 1) /\
  cell OZArith (fill_missing OZArith 4 (FillPrev OZArith) None oz_demo) 8002 1 = Some 5 /\
  cell OZArith (fill_missing OZArith 4 (FillNext OZArith) None oz_demo) 8002 1 = Some 7 /\
  cell OZArith (fill_missing OZArith 4 (FillConst OZArith (Some 9)) (Some (zrange 8002 (8005 + 1))) oz_demo) 8005 0 = Some 9 /\
  cell OZArith (fill_missing OZArith 4 (FillPrev OZArith) (Some (zrange 8002 (8002 + 1))) oz_demo) 8002 0 = None.
Proof.
  split; [intros s st en Hs He; unfold fill_dates, span_list; now rewrite Hs, He|].
  split; [reflexivity|]. split; [repeat constructor; simpl; discriminate|].
  repeat split; reflexivity.
Qed.
