(* C08  Smoothed estimates reproduce the data and are a simulation of the model.
   The one-period lemmas (under step_spec) and the deviation lemmas are in proofs/SmootherProofs.v, the induction
   over runs (krun_ind) in proofs/KalmanProofs.v, the unknown-initial-condition rerun in proofs/UnknownInitProofs.v.

   The statements are about model/Kalman.v (kf_step, kf_run, one_step_back, smooth_back, update_all,
   gen_period, xi_med) instantiated on MathComp matrices over an arbitrary real field F
   (lib/MatMC.v); the same model text, instantiated on rationals, is run against irispie's
   kalman_filter by harness/C08.py.  Quantification: every state dimension n, number of measurement
   shocks nw, every list of periods ps (any length; per-period number of observed rows, transition
   matrices, shock loadings, covariances, shock means, constants all free to vary), every initial
   mean a and symmetric initial MSE Q.

   Spec vocabulary (proofs/SmootherProofs.v, proofs/KalmanProofs.v):
     is_sym A            A^T = A
     ok_period p         the two shock covariance matrices of period p are symmetric
     all_ok ps           ok_period for every period
     all_unit fs         the prediction MSE matrix F of every period is invertible
     Tr st               T_{t+1}' r_{t+1} for the backward state st left by the later periods (0 if none)
     trans_eq a_prev s   alpha_hat = T a_prev + K + P u_hat + v_impact          (transition equation)
     sim_chain a0 ss     trans_eq along the whole list, each from the smoothed state before it
     meas_eq s           Z alpha_hat + D + H w_hat = y   on the observed rows   (measurement equations)
     dev_period / dev_fper / dev_sper abar    the deviation-mode input / the level results minus abar *)
From mathcomp Require Import all_ssreflect all_algebra.
From Verif.lib Require Import MatOps MatMC MatLemmas.
From Verif.model Require Import Kalman.
From Verif.proofs Require Import KalmanProofs SmootherProofs BatchProofs UnknownInitProofs.
Set Implicit Arguments.
Unset Strict Implicit.
Import GRing.Theory.
Local Open Scope ring_scope.

Section C08.
Variable F : realFieldType.
Variables (flog : F -> F) (flog2pi : F).
Notation M := (MC flog flog2pi).
Variables n nw : nat.
Notation krun := (@kf_run M n nw).
Notation sback := (@smooth_back M n nw).
Notation osb := (@one_step_back M n nw).

(* 1. alpha_hat_t = a1_t + Q1_t T_{t+1}' r_{t+1}, for every period of every run *)
Theorem C08_smooth_alt (a : 'cV[F]_n) (Q : 'M[F]_n) (ps : seq (period M n nw)) :
  is_sym Q -> all_ok ps -> alt_all (krun a Q ps).
Proof.
apply: (krun_ind (P := fun a Q fs => alt_all fs)) => // {a Q ps} a Q p f fs sQ _ sp IH.
by split; [exact: smooth_alt_step sp | exact: IH].
Qed.

(* 2. the smoothed states are a simulation of the model: alpha_hat_t = T alpha_hat_{t-1} + K + P u_hat_t
      (+ v_impact) with u_hat_t = u0_t + cov_u P' r_t; the first one starts from the smoothed initial
      condition a + Q T_0' r_0 *)
Theorem C08_smooth_is_simulation (a : 'cV[F]_n) (Q : 'M[F]_n) (ps : seq (period M n nw)) :
  is_sym Q -> all_ok ps ->
  sim_chain (a + Q *m Tr (sback (krun a Q ps)).2) (sback (krun a Q ps)).1.
Proof.
apply: (krun_ind (P := fun a Q fs => sim_chain (a + Q *m Tr (sback fs).2) (sback fs).1)) => // {a Q ps} a Q p f fs sQ.
case=> scu _ sp IH; rewrite sback_cons /=.
by split; [exact: sim_step | rewrite (smooth_alt_step _ sp)].
Qed.

(* 3. the smoothed states and measurement shocks satisfy every measurement equation on the observed
      rows: Z alpha_hat_t + D + H w_hat_t = y_t *)
Theorem C08_smooth_reproduces_data (a : 'cV[F]_n) (Q : 'M[F]_n) (ps : seq (period M n nw)) :
  is_sym Q -> all_ok ps -> all_unit (krun a Q ps) -> all_meas (sback (krun a Q ps)).1.
Proof.
apply: (krun_ind (P := fun a Q fs => all_unit fs -> all_meas (sback fs).1)) => // {a Q ps} a Q p f fs sQ.
case=> _ scw sp IH [uF uFs]; rewrite sback_cons /=.
by split; [exact: data_step sp uF | exact: IH].
Qed.

(* ... and so do the updated (filtered) states a1_t with the updated measurement shocks *)
Theorem C08_update_reproduces_data (a : 'cV[F]_n) (Q : 'M[F]_n) (ps : seq (period M n nw)) :
  is_sym Q -> all_ok ps -> all_unit (krun a Q ps) -> all_update (update_all (krun a Q ps)).
Proof.
apply: (krun_ind (P := fun a Q fs => all_unit fs -> all_update (update_all fs))) => // {a Q ps} a Q p f fs sQ.
case=> _ scw sp IH [uF uFs].
by split; [split; [exact: update_step sp | exact: data_step sp uF] | exact: IH].
Qed.

(* 4. deviation mode = level mode minus steady state *)
Theorem C08_deviation_commutes (abar a : 'cV[F]_n) (Q : 'M[F]_n) (ps : seq (period M n nw)) (b : bool) (vs : F) :
  all_steady abar ps ->
  let lev := krun a Q ps in
  let dev := krun (a - abar) Q [seq dev_period abar p | p <- ps] in
  [/\ dev = [seq dev_fper abar x | x <- lev],
      (sback dev).1 = [seq dev_sper abar s | s <- (sback lev).1],
      update_all dev = [seq dev_sper abar s | s <- update_all lev],
      likelihood b dev = likelihood b lev &
      @contributions M n nw vs dev = @contributions M n nw vs lev].
Proof.
move=> ss /=; rewrite dev_krun // dev_sback dev_update.
by have [-> ->] := dev_likelihood abar b vs (krun a Q ps).
Qed.

(* 6. unit-root models (diffuse_method="fixed_unknown"): correcting the cached run for the estimated unknown
      part of the initial state (the Xi recursion of predict, estimate_unknown_init, correct_for_unknown_init)
      IS the filter run started from the initial mean a + Xi_init delta -- so theorems 1-5 hold for what
      kalman_filter returns for such models as well; delta solves the GLS normal equations *)
Theorem C08_unknown_init_is_rerun k (a : 'cV[F]_n) (Q : 'M[F]_n) (ps : seq (period M n nw)) (Xi : 'M[F]_(n, k)) :
  @correct_for_unknown_init M n nw k Xi (krun a Q ps)
  = krun (a + Xi *m @estimate_unknown_init M n nw k (krun a Q ps) (@xi_run M n nw k Xi None (krun a Q ps))) Q ps.
Proof. by rewrite /correct_for_unknown_init correct_is_rerun. Qed.

Theorem C08_unknown_init_normal_equations k (fs : seq (fper M n nw)) (Xis : seq 'M[F]_(n, k)) :
  gls_S fs Xis \in unitmx ->
  gls_S fs Xis *m @estimate_unknown_init M n nw k fs Xis = gls_b fs Xis.
Proof. by move=> uS; rewrite /estimate_unknown_init -/(gls_terms fs Xis) -/(gls_S fs Xis) /= mulKVmx. Qed.

Section Mapping.
Variables nu nyf nxi : nat.
Variable s : solution M n nw nu nyf nxi.

(* 3'. for the periods generated from a model: the measurement equations above are the model's
       measurement block Za, D, H read on the rows observed in the period; the side conditions
       all_ok hold for every data set *)
Theorem C08_observed_rows (d : pdata M n nw nu nyf) (alpha : 'cV[F]_n) (w : 'cV[F]_nw) :
  let p := gen_period s d in
  p_Z p *m alpha + p_D p + p_H p *m w = mc_sel (d_mask d) (so_Za s *m alpha + so_D s + so_H s *m w)
  /\ p_y p = mc_sel (d_mask d) (d_y d).
Proof. by rewrite /= !mc_sel_add !mc_sel_mul. Qed.

Theorem C08_generated_periods_ok (data : seq (pdata M n nw nu nyf)) :
  all_ok (List.map (gen_period s) data).
Proof. by elim: data => [|d data IH] //=; split; [exact: gen_period_ok | exact: IH]. Qed.

(* 5. output mapping: the stored values of the current-dated transition variables are the rows
      curr_xi_indexes of Ua alpha, their variances the corresponding diagonal entries of Ua Q Ua';
      the mapping is linear (so the deviation shift of thm 4 is Ua abar in variable space) *)
Theorem C08_output_mapping (a abar : 'cV[F]_n) (Q : 'M[F]_n) (i : 'I_(length (so_curr_xi s))) (r : 'I_nxi) :
  nth 0%N (so_curr_xi s) i = r ->
  [/\ xi_med s a = mc_rows (so_curr_xi s) (so_Ua s *m a),
      xi_med s a i ord0 = (so_Ua s *m a) r ord0,
      xi_med s (a - abar) = xi_med s a - xi_med s abar &
      let U := mc_rows (so_curr_xi s) (so_Ua s) in
      (U *m Q *m U^T) i i = (so_Ua s *m Q *m (so_Ua s)^T) r r].
Proof. exact: output_mapping. Qed.

End Mapping.

(* non-vacuity: a concrete one-dimensional system with two observed periods (T = P = Z = H = 1, unit
   variances, any data y1 y2, over any real field) meets every hypothesis used above *)
Example C08_hypotheses_satisfiable (y1 y2 : F) :
  let ps := [:: ex_period flog flog2pi y1; ex_period flog flog2pi y2] in
  let Q : 'M[F]_1 := 1%:M in
  [/\ is_sym Q, all_ok ps & all_unit (@kf_run M 1 1 0 Q ps)].
Proof. exact: ex_hypotheses. Qed.

End C08.

Print Assumptions C08_smooth_alt.
Print Assumptions C08_smooth_is_simulation.
Print Assumptions C08_smooth_reproduces_data.
Print Assumptions C08_update_reproduces_data.
Print Assumptions C08_deviation_commutes.
Print Assumptions C08_unknown_init_is_rerun.
Print Assumptions C08_unknown_init_normal_equations.
Print Assumptions C08_observed_rows.
Print Assumptions C08_generated_periods_ok.
Print Assumptions C08_output_mapping.

(* The model object as a state machine (model/KalmanSession.v; proofs/KalmanSessionProofs.v).
   A model is a list of variants (values, solution with its two memo lists of expansion matrices); operations
   assign / solve / alter_num_variants / kalman_filter (both modes) / simulate.  `arun` is the specification
   machine: it stores no solution and no cache, and answers a call with a function of the variant's current
   values, the values it was last solved for, the mode and the variant's data column only.  The black boxes
   (assign1, solve1, devsol, expand, kf, sim) are arbitrary functions. *)
From Verif.model Require KalmanSession.
From Verif.proofs Require KalmanSessionProofs.

(* variant pointwise: output k of a filter / simulate call on a model with any number of variants is the output of
   the same call on the single-variant model made of variant k, with data column k *)
Theorem C08_call_variant_pointwise (P S E D O : Type) (devsol : S -> S) (expand : bool -> S -> nat -> E)
    (fwd_of : D -> option nat) (kf sim : S -> P -> list E -> D -> O)
    (b dev : bool) (vs : list (KalmanSession.variant P S E)) (ds : list D) (dd : D) (k : nat)
    (dflt : KalmanSession.variant P S E) :
  lt k (length vs) ->
  List.nth k (List.map snd (KalmanSession.call_model P S E D O devsol expand fwd_of kf sim b dev vs ds dd)) None
  = List.nth 0%nat (List.map snd (KalmanSession.call_model P S E D O devsol expand fwd_of kf sim b dev (cons (List.nth k vs dflt) nil)
                                 (cons (KalmanSession.etl ds dd k) nil) dd)) None.
Proof.
  intros Hk. unfold KalmanSession.call_model.
  rewrite KalmanSessionProofs.map_zip_stream (KalmanSessionProofs.zip_stream_nth _ _ _ _ _ _ _ k dflt None Hk).
  reflexivity.
Qed.

(* every session started on a freshly built and solved model returns what the specification machine returns *)
Theorem C08_session_from_fresh_refines (P X S E D O : Type) (assign1 : X -> P -> P) (solve1 : P -> S) (devsol : S -> S)
    (expand : bool -> S -> nat -> E) (fwd_of : D -> option nat) (kf sim : S -> P -> list E -> D -> O)
    (ops : list (KalmanSession.op X D)) (p : P) :
  fst (KalmanSession.run P X S E D O assign1 solve1 devsol expand fwd_of kf sim ops (KalmanSession.fresh P S E solve1 p))
  = fst (KalmanSession.arun P X S E D O assign1 solve1 devsol expand fwd_of kf sim ops (cons (KalmanSession.mkAv P p (Some p)) nil)).
Proof. apply KalmanSessionProofs.session_refines, KalmanSessionProofs.fresh_rel. Qed.

Print Assumptions C08_call_variant_pointwise.
Print Assumptions C08_session_from_fresh_refines.

(* The measurement block of the solution (fords/solutions.py: _solve_measurement_equations, generated from the
   source into gen/MeasBlockGen.v by translator/measblock.py).  For every dimension and every invertible Jacobian F0 of
   the measurement equations w.r.t. the measurement variables (not assumed diagonal or symmetric), the (Z, H, D) the code
   computes make the observation equation  y = Z xi + D + H w  used by the filter EQUIVALENT to the model's linearised
   measurement equations  F0 y + G0 xi + Hc + J0 w = 0. *)
From Verif.gen Require MeasBlockGen.
From Verif.proofs Require MeasBlockProofs.
Theorem C08_measurement_block_solves (K : fieldType) (flog0 : K -> K) (flog2pi0 : K) (ny nxi nw0 na : nat)
    (F0 : 'M[K]_ny) (G0 : 'M[K]_(ny, nxi)) (J0 : 'M[K]_(ny, nw0)) (Hc : 'cV[K]_ny) (Ua : 'M[K]_(nxi, na)) :
  F0 \in unitmx ->
  forall (y : 'cV[K]_ny) (xi : 'cV[K]_nxi) (w : 'cV[K]_nw0),
    (F0 *m y + G0 *m xi + Hc + J0 *m w = 0) <->
    (y = @MeasBlockGen.meas_Z (MC flog0 flog2pi0) ny nxi nw0 na F0 G0 J0 Hc Ua *m xi
         + @MeasBlockGen.meas_D (MC flog0 flog2pi0) ny nxi nw0 na F0 G0 J0 Hc Ua
         + @MeasBlockGen.meas_H (MC flog0 flog2pi0) ny nxi nw0 na F0 G0 J0 Hc Ua *m w).
Proof. exact (@MeasBlockProofs.meas_block_solves K flog0 flog2pi0 ny nxi nw0 na F0 G0 J0 Hc Ua). Qed.

Print Assumptions C08_measurement_block_solves.
