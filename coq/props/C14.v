(* C14  Trend filters return the optimum of their problem; trend plus gap is the data.
   The lemmas the proofs rest on are in proofs/HPProofs.v (hpf) and proofs/L1Proofs.v (lonf).

   The statements are about the model text of model/HP.v and model/L1.v (written once over the matrix
   interface of lib/MxC14.v) read at the MathComp instance [MCOps F], F ANY realFieldType.  The same
   text, read at the bigQ instance, is what the correspondence evaluates against the implementation.
   hp_stencil, hp_level_row, hp_change_row, l1_stencil_1/2 come from gen/HPGen.v, regenerated from
   series/_hp.py and series/_ell_one.py on every run.

   Oracles (premises, never axioms):  [solve] = numpy.linalg.solve with the contract  M (solve M b) = b
   on the call the model makes;  [qp] = daqp with the KKT conditions of its box QP;  [lg]/[ex] = numpy
   log/exp with  exp(a-b) = exp a / exp b,  exp(log x) = x  for x > 0. *)
From Coq Require Import ZArith.
From mathcomp Require Import ssreflect ssrfun ssrbool eqtype ssrnat seq fintype bigop order ssralg ssrnum zmodp matrix.
From Verif Require Import MxC14 HP L1 HPProofs L1Proofs.
Import Order.TTheory GRing.Theory Num.Theory.
Local Open Scope ring_scope.

Notation O := (MCOps _).

(* ---------------------------------------------------------------- hpf *)

(* 1. The returned trend meets the level/change constraints exactly and minimises the Hodrick-Prescott
      objective  hp_J = sum over observed periods (y - t)^2 + lam * sum (second differences of t)^2
      among ALL trends that meet them; the excess of any other feasible trend is the quadratic form
      (t'-t)'(E + lam K'K)(t'-t) >= 0.  Any length n, observation pattern, constraint lists. *)
Theorem C14_hp_optimal :
  forall (F : realFieldType) (n : nat) (lam : F) (data : list (option F)) (lc cc : list (nat * F))
         (solve : forall m, 'M[F]_m -> 'cV[F]_m -> 'cV[F]_m),
  hp_M O n lam data lc cc *m solve _ (hp_M O n lam data lc cc) (hp_rhs O n data lc cc) = hp_rhs O n data lc cc ->
  0 <= lam ->
  let t := hp_trend_vec O solve n lam data lc cc in
  hp_C O n lc cc *m t = hp_c O lc cc /\
  forall t' : 'cV[F]_n, hp_C O n lc cc *m t' = hp_c O lc cc ->
    hp_J lam data t' - hp_J lam data t = hp_Q lam data (t' - t) /\
    0 <= hp_Q lam data (t' - t) /\ hp_J lam data t <= hp_J lam data t'.
Proof. move=> F n lam data lc cc solve Hs Hl; exact: (hp_optimal Hs Hl). Qed.
Print Assumptions C14_hp_optimal.

(* 1b. what "C t = c" means: trend = level value at each level-constrained period; change of the trend
       = change value at each change-constrained period *)
Theorem C14_hp_constraints_met :
  forall (F : realFieldType) (n : nat) (lc cc : list (nat * F)) (t : 'cV[F]_n),
  hp_C O n lc cc *m t = hp_c O lc cc ->
  (forall i, (i < length lc)%N -> (cpos O lc i < n)%N -> vget t (cpos O lc i) = cval O lc i) /\
  (forall i, (i < length cc)%N -> (0 < cpos O cc i < n)%N ->
             vget t (cpos O cc i) - vget t (cpos O cc i).-1 = cval O cc i).
Proof.
move=> F n lc cc t; rewrite /hp_C /hp_c /= mul_col_mx => /eq_col_mx [HL HC]; split=> i Hi Hp.
- have := congr1 (fun A : 'cV[F]_(length lc) => A (Ordinal Hi) 0) HL.
  by rewrite level_row /cvec mxE.
- have := congr1 (fun A : 'cV[F]_(length cc) => A (Ordinal Hi) 0) HC.
  by rewrite change_row /cvec ?mxE //; case/andP: Hp.
Qed.
Print Assumptions C14_hp_constraints_met.

(* 2. Uniqueness: with an invertible bordered matrix no other feasible trend does as well *)
Theorem C14_hp_unique :
  forall (F : realFieldType) (n : nat) (lam : F) (data : list (option F)) (lc cc : list (nat * F))
         (solve : forall m, 'M[F]_m -> 'cV[F]_m -> 'cV[F]_m),
  hp_M O n lam data lc cc *m solve _ (hp_M O n lam data lc cc) (hp_rhs O n data lc cc) = hp_rhs O n data lc cc ->
  0 < lam -> hp_M O n lam data lc cc \in unitmx ->
  forall t' : 'cV[F]_n, hp_C O n lc cc *m t' = hp_c O lc cc ->
    hp_J lam data t' <= hp_J lam data (hp_trend_vec O solve n lam data lc cc) ->
    t' = hp_trend_vec O solve n lam data lc cc.
Proof. move=> F n lam data lc cc solve Hs Hl Hu; exact: (hp_unique Hs Hl Hu). Qed.
Print Assumptions C14_hp_unique.

(* 2b. ... and the bordered matrix IS invertible whenever lam > 0, two periods are observed and the
       constraint rows are linearly independent (missing observations are bridged by the smoothness term) *)
Theorem C14_hp_wellposed :
  forall (F : realFieldType) (n : nat) (lam : F) (data : list (option F)) (lc cc : list (nat * F)) (i1 i2 : nat),
  0 < lam -> (i1 < i2 < n)%N -> obs_at O data i1 -> obs_at O data i2 ->
  (forall mu : 'cV[F]_(length lc + length cc), (hp_C O n lc cc)^T *m mu = 0 -> mu = 0) ->
  hp_M O n lam data lc cc \in unitmx.
Proof. move=> F n lam data lc cc i1 i2; exact: hp_wellposed. Qed.
Print Assumptions C14_hp_wellposed.

(* 2c. non-vacuity of the oracle contract: whenever the bordered matrix is invertible (2b: e.g. without
       constraints, lam > 0 and two observations), solve := M^-1 b satisfies the contract assumed above *)
Theorem C14_hp_contract_satisfiable :
  forall (F : realFieldType) (n : nat) (lam : F) (data : list (option F)) (lc cc : list (nat * F)),
  hp_M O n lam data lc cc \in unitmx ->
  let solve := fun m (A : 'M[F]_m) (b : 'cV[F]_m) => invmx A *m b in
  hp_M O n lam data lc cc *m solve _ (hp_M O n lam data lc cc) (hp_rhs O n data lc cc) = hp_rhs O n data lc cc.
Proof. by move=> F n lam data lc cc Hu /=; rewrite mulKVmx. Qed.
Print Assumptions C14_hp_contract_satisfiable.

Theorem C14_hp_unconstrained_wellposed :
  forall (F : realFieldType) (n : nat) (lam : F) (data : list (option F)) (i1 i2 : nat),
  0 < lam -> (i1 < i2 < n)%N -> obs_at O data i1 -> obs_at O data i2 ->
  hp_M O n lam data nil nil \in unitmx.
Proof.
move=> F n lam data i1 i2 Hl Hi O1 O2; apply: (hp_wellposed Hl Hi O1 O2) => mu _.
by apply/matrixP => -[].
Qed.
Print Assumptions C14_hp_unconstrained_wellposed.

(* 3. trend + gap = data on observed rows; the gap is missing exactly where the data are *)
Theorem C14_trend_plus_gap :
  forall (F : realFieldType) (n : nat) (lam : F) (data : list (option F)) (lc cc : list (nat * F))
         (solve : forall m, 'M[F]_m -> 'cV[F]_m -> 'cV[F]_m) (i : nat),
  match hp_gap O solve n lam data lc cc i with
  | Some g => List.nth i data None = Some (hp_trend O solve n lam data lc cc i + g)
  | None => List.nth i data None = None
  end.
Proof.
move=> F n lam data lc cc solve i.
rewrite /hp_gap /obs_at /val_at; case: (List.nth i data None) => [v|] //=.
by rewrite addrC subrK.
Qed.
Print Assumptions C14_trend_plus_gap.

(* 3b. the same on the returned Series (public result of hpf), log=False *)
Theorem C14_series_trend_plus_gap :
  forall (F : realFieldType) (solve : forall m, 'M[F]_m -> 'cV[F]_m -> 'cV[F]_m) (lg ex : F -> F)
         (a : hp_args O) (v : list (option F)) (t : Z) (g : F),
  a_log O a = false -> hpf_gap_at O solve lg ex a v t = Some g ->
  exists y tr, at_period O (a_start O a) v t = Some y /\ hpf_trend_at O solve lg ex a v t = Some tr /\
               tr + g = y.
Proof.
move=> F solve lg ex a v t g Hl /hpf_gap_value [y [tr [H1 [H2 [_ H3]]]]]; rewrite Hl in H2 H3.
by exists y, tr; split; [exact: H1 | split; [exact: H2 | rewrite H3 /= addrC subrK]].
Qed.
Print Assumptions C14_series_trend_plus_gap.

Theorem C14_series_gap_defined :
  forall (F : realFieldType) (solve : forall m, 'M[F]_m -> 'cV[F]_m -> 'cV[F]_m) (lg ex : F -> F)
         (a : hp_args O) (v : list (option F)) (t : Z),
  (hpf_gap_at O solve lg ex a v t = None <-> (in_span O a t = false \/ at_period O (a_start O a) v t = None)) /\
  (hpf_trend_at O solve lg ex a v t = None <-> in_span O a t = false).
Proof.
move=> F solve lg ex a v t; split; [exact: hpf_gap_defined | exact: hpf_trend_defined].
Qed.
Print Assumptions C14_series_gap_defined.

(* 4. A straight line is returned unchanged -- also when some of its points are missing, and with
      constraints that lie on the line *)
Theorem C14_line_invariant :
  forall (F : realFieldType) (n : nat) (lam : F) (data : list (option F)) (lc cc : list (nat * F))
         (solve : forall m, 'M[F]_m -> 'cV[F]_m -> 'cV[F]_m) (a b : F),
  let line := (\col_(i < n) (a + b * i%:R)) : 'cV[F]_n in
  (forall i, (i < n)%N -> obs_at O data i -> val_at O data i = a + b * i%:R) ->
  hp_C O n lc cc *m line = hp_c O lc cc ->
  hp_M O n lam data lc cc \in unitmx ->
  hp_M O n lam data lc cc *m solve _ (hp_M O n lam data lc cc) (hp_rhs O n data lc cc) = hp_rhs O n data lc cc ->
  hp_trend_vec O solve n lam data lc cc = line.
Proof.
move=> F n lam data lc cc solve a b line Hdata; apply: hp_ker_invariant.
- by apply: (@affine_second_diff _ _ a b) => i Hi; rewrite vget_ord mxE.
- by move=> i Ho; rewrite mxE (Hdata i (ltn_ord i) Ho).
Qed.
Print Assumptions C14_line_invariant.

(* 5. log=True filters the logarithms and exponentiates: trend * gap = data *)
Theorem C14_log_mode :
  forall (F : realFieldType) (solve : forall m, 'M[F]_m -> 'cV[F]_m -> 'cV[F]_m) (lg ex : F -> F)
         (a : hp_args O) (v : list (option F)) (t : Z) (g : F),
  (forall x z, ex (x - z) = ex x / ex z) -> (forall x, ex x != 0) -> (forall x, 0 < x -> ex (lg x) = x) ->
  a_log O a = true -> hpf_gap_at O solve lg ex a v t = Some g ->
  exists y ltr, at_period O (a_start O a) v t = Some y /\
                hpf_trend_at O solve lg ex a v t = Some (ex ltr) /\
                ltr = hp_trend O solve (enc_len O a) (smooth_of O a) (log_data O lg (enc_data O a v))
                               (log_cs O lg (prepare O a (a_level O a)))
                               (log_cs O lg (drop_first_date O (prepare O a (a_change O a))))
                               (Z.to_nat (Z.sub t (enc_start O a))) /\
                (0 < y -> ex ltr * g = y).
Proof.
move=> F solve lg ex a v t g Hsub Hnz Hel Hl /hpf_gap_value [y [ltr [H1 [H2 [H3 H4]]]]]; rewrite Hl in H2 H3 H4.
exists y, ltr; split; [exact: H1 | split; [exact: H2 | split; [exact: H3 | move=> Hy]]].
by rewrite H4 /= Hsub (Hel _ Hy) mulrCA mulfV ?mulr1.
Qed.
Print Assumptions C14_log_mode.

(* 6. The requested span only selects rows: for every span inside the span covered by the data and the
      constraints the filter problem is the same one (that of span=None), and the result at period t is
      its row t when t is in the requested span, nothing otherwise *)
Theorem C14_clip_only :
  forall (F : realFieldType) (solve : forall m, 'M[F]_m -> 'cV[F]_m -> 'cV[F]_m) (lg ex : F -> F)
         (a : hp_args O) (s : Z * Z) (v : list (option F)) (t : Z),
  span_inside O a s ->
  let a0 := with_span O a None in
  hpf_trend_at O solve lg ex (with_span O a (Some s)) v t =
    (if Z.leb (fst s) t && Z.leb t (snd s)
     then Some (hp_trend_mode O solve lg ex (a_log O a) (enc_len O a0) (smooth_of O a0) (enc_data O a0 v)
                  (prepare O a0 (a_level O a)) (drop_first_date O (prepare O a0 (a_change O a)))
                  (Z.to_nat (Z.sub t (enc_start O a0))))
     else None) /\
  hpf_gap_at O solve lg ex (with_span O a (Some s)) v t =
    (if Z.leb (fst s) t && Z.leb t (snd s)
     then hp_gap_mode O solve lg ex (a_log O a) (enc_len O a0) (smooth_of O a0) (enc_data O a0 v)
                  (prepare O a0 (a_level O a)) (drop_first_date O (prepare O a0 (a_change O a)))
                  (Z.to_nat (Z.sub t (enc_start O a0)))
     else None).
Proof.
move=> F solve lg ex a s v t Hin a0; have [E1 E2] := enc_inside O a s Hin.
by rewrite /hpf_trend_at /hpf_gap_at /in_span /enc_data /prepare /enc_len !E1 !E2.
Qed.
Print Assumptions C14_clip_only.

(* 6b. a filter span reaching BEYOND the data (on the right): appending an unobserved, unconstrained period
       leaves the trend on the original periods unchanged and continues it by linear extrapolation.  (Several
       appended periods, and periods prepended on the left, are not proved; the falsifier checks both sides on
       the implementation.) *)
Theorem C14_hp_extend_right_partial :
  forall (F : realFieldType) (n : nat) (lam : F) (data : list (option F)) (lc cc : list (nat * F))
         (solve : forall m, 'M[F]_m -> 'cV[F]_m -> 'cV[F]_m),
  (2 <= n)%N -> obs_at O data n = false ->
  (forall i, (i < length lc)%N -> (cpos O lc i < n)%N) ->
  (forall i, (i < length cc)%N -> (cpos O cc i < n)%N) ->
  0 < lam ->
  hp_M O n lam data lc cc *m solve _ (hp_M O n lam data lc cc) (hp_rhs O n data lc cc) = hp_rhs O n data lc cc ->
  hp_M O (n + 1) lam data lc cc *m solve _ (hp_M O (n + 1) lam data lc cc) (hp_rhs O (n + 1) data lc cc)
    = hp_rhs O (n + 1) data lc cc ->
  hp_M O (n + 1) lam data lc cc \in unitmx ->
  hp_trend_vec O solve (n + 1) lam data lc cc = extend1 (hp_trend_vec O solve n lam data lc cc).
Proof. move=> F n lam data lc cc solve H2 Hd Hlc Hcc; exact: (hp_extend_right H2 Hd Hlc Hcc). Qed.
Print Assumptions C14_hp_extend_right_partial.

(* ---------------------------------------------------------------- lonf *)

(* 7. trend + gap = data *)
Theorem C14_l1_identity :
  forall (F : realFieldType) (order n : nat) (ys : list F) (qp : forall m, 'M[F]_m -> 'cV[F]_m -> F -> 'cV[F]_m) (lam : F),
  l1_trend_vec O qp order n lam ys + l1_gap_vec O qp order n lam ys = l1_y O n ys.
Proof. move=> F order n ys qp lam; exact: l1_identity. Qed.
Print Assumptions C14_l1_identity.

(* 8. The KKT conditions of the box QP handed to daqp (H = D D', f = -D y, bounds +-lam) at its answer nu
      are EQUIVALENT to the optimality certificate of the l1 trend-filter problem at trend = y - D' nu:
      |nu_i| <= lam and nu_i (D trend)_i = lam |(D trend)_i|, i.e. s = nu/lam is a subgradient of |.|_1 at
      D trend and y - trend = lam D' s *)
Theorem C14_l1_kkt :
  forall (F : realFieldType) (order n : nat) (ys : list F) (qp : forall m, 'M[F]_m -> 'cV[F]_m -> F -> 'cV[F]_m) (lam : F),
  0 < lam ->
  let nu := l1_nu O qp order n lam ys in
  (box_kkt nu lam (l1_H O order n *m nu + l1_f O order n ys)
   <-> l1_cert (l1_D O order n) (l1_y O n ys) nu lam).
Proof. move=> F order n ys qp lam; exact: l1_kkt. Qed.
Print Assumptions C14_l1_kkt.

Theorem C14_l1_subgradient :
  forall (F : realFieldType) (p n : nat) (D : 'M[F]_(p, n)) (y : 'cV[F]_n) (nu : 'cV[F]_p) (lam : F),
  0 < lam -> l1_cert D y nu lam ->
  exists s : 'cV[F]_p,
    (forall i, `|s i 0| <= 1 /\ s i 0 * (l1_r D y nu) i 0 = `|(l1_r D y nu) i 0|) /\
    y - l1_x D y nu = lam *: (D^T *m s).
Proof.
move=> F p n D y nu lam Hl Hc; exists (lam^-1 *: nu); split.
- move=> i; have [Hb Hr] := Hc i.
  have -> : (lam^-1 *: nu) i 0 = lam^-1 * nu i 0 by rewrite mxE.
  split.
  + by rewrite normrM normfV (gtr0_norm Hl) mulrC ler_pdivr_mulr // mul1r.
  + by rewrite -mulrA Hr mulKf // lt0r_neq0.
- rewrite /l1_x opprB addrC subrK -scalemxAr scalerA mulfV ?scale1r //.
  exact: lt0r_neq0.
Qed.
Print Assumptions C14_l1_subgradient.

(* 9. ... and they make the returned trend THE minimiser of  1/2 sum (y - x)^2 + lam sum |order-th
      differences of x|  over all x (order 1 or 2, any length) *)
Theorem C14_l1_optimal :
  forall (F : realFieldType) (order n : nat) (ys : list F) (qp : forall m, 'M[F]_m -> 'cV[F]_m -> F -> 'cV[F]_m) (lam : F),
  (order == 1%N) || (order == 2%N) -> 0 < lam ->
  let nu := l1_nu O qp order n lam ys in
  box_kkt nu lam (l1_H O order n *m nu + l1_f O order n ys) ->
  forall x' : 'cV[F]_n,
    l1_obj order ys lam (l1_trend_vec O qp order n lam ys) <= l1_obj order ys lam x' /\
    (l1_obj order ys lam x' <= l1_obj order ys lam (l1_trend_vec O qp order n lam ys) ->
     x' = l1_trend_vec O qp order n lam ys).
Proof.
by move=> F order n ys qp lam Ho Hl nu /(l1_kkt _ _ _ _ Hl) Hc x'; rewrite !l1_obj_P //; exact: l1_optimal_abs.
Qed.
Print Assumptions C14_l1_optimal.

(* 10. Soundness of the checker the correspondence runs on daqp's recorded answer (exact rationals):
       if kkt_ok accepts nu with bound lam' and slack eps, then NO x' has an objective (smoothing lam')
       that is lower than that of y - D' nu (smoothing lam) by more than eps *)
Theorem C14_kkt_ok_sound :
  forall (F : realFieldType) (order n : nat) (ys : list F) (lam lam' eps : F) (nu : 'cV[F]_(n - order)),
  (order == 1%N) || (order == 2%N) ->
  kkt_ok O order n lam lam' eps ys nu = true ->
  forall x' : 'cV[F]_n,
    l1_obj order ys lam (l1_x (l1_D O order n) (l1_y O n ys) nu) <= l1_obj order ys lam' x' + eps.
Proof. move=> F order n ys lam lam' eps nu Ho; exact: (kkt_ok_sound Ho). Qed.
Print Assumptions C14_kkt_ok_sound.

(* 11. trend + gap = data (7) on the lists lonf puts into the returned Series *)
Theorem C14_l1_variant_identity :
  forall (F : realFieldType) (qp : forall m, 'M[F]_m -> 'cV[F]_m -> F -> 'cV[F]_m) (order : nat) (lam : F)
         (ys : list F) (i : nat),
  (i < length ys)%N ->
  List.nth i (fst (l1_variant O qp order lam ys)) 0 + List.nth i (snd (l1_variant O qp order lam ys)) 0
  = List.nth i ys 0.
Proof.
move=> F qp order lam ys i Hi; rewrite /l1_variant /=.
have Hi' := ssrnat.ltP Hi.
rewrite !(nth_map_seq _ _ _ _ Hi').
have := @l1_identity F order (length ys) ys qp lam.
move/(congr1 (fun A : 'cV[F]_(length ys) => A (Ordinal Hi) 0)).
rewrite mxE -!(mc_getE _ (Ordinal Hi) 0) /= => ->.
by rewrite (mc_getE _ (Ordinal Hi) 0) /l1_y mxE.
Qed.
Print Assumptions C14_l1_variant_identity.

(* 12. non-vacuity of the KKT premise of 9, and "nothing to smooth": when the order-th differences of the data
       vanish, nu = 0 is a KKT point and the data are returned unchanged *)
Theorem C14_l1_kkt_zero :
  forall (F : realFieldType) (order n : nat) (ys : list F) (lam : F),
  0 < lam -> l1_D O order n *m l1_y O n ys = 0 ->
  let qp0 := fun m (_ : 'M[F]_m) (_ : 'cV[F]_m) (_ : F) => (0 : 'cV[F]_m) in
  box_kkt (l1_nu O qp0 order n lam ys) lam
          (l1_H O order n *m l1_nu O qp0 order n lam ys + l1_f O order n ys)
  /\ l1_trend_vec O qp0 order n lam ys = l1_y O n ys.
Proof.
move=> F order n ys lam Hl HD qp0; split; last by rewrite /l1_trend_vec /l1_gap_vec /l1_nu /= mulmx0 subr0.
rewrite l1_model_gradient /l1_nu /= /l1_r /l1_x mulmx0 subr0 HD oppr0 => i.
by rewrite !mxE normr0; split; [exact: ltW | split=> // ; split=> _; rewrite ?lexx].
Qed.
Print Assumptions C14_l1_kkt_zero.

(* 13. what the correspondence case files evaluate (hpf_model: one solve per variant, any carrier) is,
       value by value, the functions hpf_trend_at / hpf_gap_at that the theorems above speak about *)
Theorem C14_model_pointwise :
  forall (Ops : MatOps) (solve : forall n, mx Ops n n -> mx Ops n 1 -> mx Ops n 1) (lg ex : sc Ops -> sc Ops)
         (a : hp_args Ops) (w : Z) (len : nat),
  hpf_model Ops solve lg ex a w len =
  List.map (fun v => (List.map (hpf_trend_at Ops solve lg ex a v) (window w len),
                      List.map (hpf_gap_at Ops solve lg ex a v) (window w len))) (a_vars Ops a).
Proof.
move=> Ops solve lg ex a w len; apply: List.map_ext => v; rewrite /hpf_variant; congr pair.
apply: List.map_ext => t; rewrite /hpf_gap_at /hp_gap_mode /hp_gap /hp_trend.
by case: in_span => //; case: obs_at.
Qed.
Print Assumptions C14_model_pointwise.
