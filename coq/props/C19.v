(* C19  Databox, dataslate and CSV conversions are lossless on selected names and span.
   The lemmas the proofs use are in proofs/CsvProofs.v, Csv4Proofs.v, Csv5Proofs.v, Csv6Proofs.v (CSV) and in
   proofs/DataboxProofs.v, Databox4Proofs.v, Merge6Proofs.v (databox operations, merge, dataslate).

   The CSV theorems hold for EVERY scalar carrier with a recognisable missing value and for EVERY
   period <-> text and number <-> text codec that round-trips (hypotheses below; the period codecs of
   irispie are the subject of C11, float formatting is glue): for every databox, every name
   selection, every frequency-span option, description row and nan string.  The dataslate theorems hold for every
   databox, span and option, each for one conversion or one span-changing step; the operation specifications for one
   operation on every databox; the frame, unique-names and other-databox theorems for every history of operations. *)
From Coq Require Import String ZArith List Bool Lia.
From Verif Require Import lib.Arith lib.ArithOptZ model.Series model.Databox model.Slate model.Csv gen.CsvGen
  proofs.SeriesProofs proofs.SeriesOpsProofs proofs.DataboxProofs proofs.CsvProofs
  model.Csv4 proofs.Databox4Proofs proofs.Csv4Proofs
  model.Csv5 proofs.Csv5Proofs
  model.Merge6 proofs.Merge6Proofs proofs.Csv6Proofs.
Import ListNotations.
Open Scope Z_scope.

Definition lawful (A : Arith) : Prop := forall x : car A, is_miss A x = true -> x = miss A.

(* import (export db) succeeds and returns exactly the exported series -- the series of the selected
   names whose frequency is in the frequency span -- under their names, with their descriptions (when the
   description row is written) and as the series [imp_series] characterised by the next theorem; nothing
   else is returned.  Stated exceptions (hypotheses): a name that is empty, "*" or starts with "__"; a
   series without variants; an exported frequency without periods (this includes series without a start,
   which are exported under the unknown frequency with no periods). *)
Theorem C19_csv_roundtrip : forall A, lawful A ->
  forall (fmt_period : Z -> Z -> string) (parse_period : Z -> string -> option Z)
         (fmt_val : car A -> string) (parse_val : string -> car A) (rnd : car A -> car A),
  (forall f t, fmt_period f t <> ""%string) ->
  (forall f t, parse_period f (fmt_period f t) = Some t) ->
  (forall x, is_miss A (rnd x) = false -> parse_val (fmt_val (rnd x)) = rnd x) ->
  forall o : wopts, parse_val (w_nan o) = miss A ->
  forall db : databox A,
  let db1 := selected A db o in
  let fs := resolve_fspan A db1 (w_fspan o) in
  NoDup (map fst (w_fspan o)) ->
  (forall n d s ps, dget A db1 n = Some (ISer A d s) -> In (sfreq A s, ps) fs ->
     good_name n /\ WF A s /\ (1 <= s_nv s)%nat /\ ps <> [] /\
     is_start (mark_of_freq (sfreq A s)) = Some (sfreq A s)) ->
  exists db', import A parse_period parse_val (w_desc o) (export A fmt_period fmt_val rnd db o) = Ok db' /\
    (forall n d s ps, dget A db1 n = Some (ISer A d s) -> In (sfreq A s, ps) fs ->
       let s' := imp_series A rnd (sfreq A s) ps s in
       dget A db' n = Some (ISer A (kept_desc A ps s' (if w_desc o then d else ""%string)) s')) /\
    (forall n, (forall d s ps, dget A db1 n = Some (ISer A d s) -> ~ In (sfreq A s, ps) fs) -> dget A db' n = None).
Proof. exact csv_roundtrip. Qed.
Print Assumptions C19_csv_roundtrip.

(* the series that comes back: same number of variants, well formed and trimmed, the block's frequency, and
   period by period the rounded values of the original on the exported periods, missing elsewhere *)
Theorem C19_csv_values_on_span : forall A, lawful A -> forall (rnd : car A -> car A) f ps (s : series A), WF A s ->
  let s' := imp_series A rnd f ps s in
  WF A s' /\ Trimmed A s' /\ s_nv s' = s_nv s /\
  (forall t, row_at A s' t = if in_dec Z.eq_dec t ps then map rnd (row_at A s t) else missrow A (s_nv s)) /\
  (s_start s' <> None -> s_freq s' = f).
Proof. exact imp_series_spec. Qed.
Print Assumptions C19_csv_values_on_span.

(* a trimmed series whose span is covered by the exported periods comes back as itself, values rounded:
   same frequency, start, end, variants *)
Theorem C19_csv_series_identity : forall A, lawful A -> forall rnd : car A -> car A, is_miss A (miss A) = true ->
  forall ps (s : series A) st,
  (forall x, is_miss A (rnd x) = is_miss A x) -> WF A s -> Trimmed A s -> s_start s = Some st ->
  (forall t, st <= t < st + Z.of_nat (length (s_data s)) -> In t ps) ->
  imp_series A rnd (s_freq s) ps s = rounded A rnd s.
Proof. exact imp_series_identity. Qed.
Print Assumptions C19_csv_series_identity.

(* the composition for the default frequency span: every series of the selected names comes back under its
   name, with its description and as itself with rounded values; scalars and lists are not exported *)
Theorem C19_csv_lossless_default : forall A, lawful A -> is_miss A (miss A) = true ->
  forall (fmt_period : Z -> Z -> string) (parse_period : Z -> string -> option Z)
         (fmt_val : car A -> string) (parse_val : string -> car A) (rnd : car A -> car A),
  (forall f t, fmt_period f t <> ""%string) ->
  (forall f t, parse_period f (fmt_period f t) = Some t) ->
  (forall x, is_miss A (rnd x) = false -> parse_val (fmt_val (rnd x)) = rnd x) ->
  (forall x, is_miss A (rnd x) = is_miss A x) ->
  forall o : wopts, parse_val (w_nan o) = miss A ->
  forall db : databox A,
  let db1 := selected A db o in
  w_fspan o = default_fspan ->
  (forall n d s, dget A db1 n = Some (ISer A d s) ->
     good_name n /\ WF A s /\ Trimmed A s /\ (1 <= s_nv s)%nat /\ s_start s <> None /\
     In (s_freq s) default_freq_order /\ s_freq s <> -1) ->
  exists db', import A parse_period parse_val (w_desc o) (export A fmt_period fmt_val rnd db o) = Ok db' /\
    forall n, dget A db' n = match dget A db1 n with
                             | Some (INon (ESer d s)) => Some (ISer A (if w_desc o then d else ""%string) (rounded A rnd s))
                             | _ => None
                             end.
Proof.
  intros A miss_law miss_is_miss fmt_period parse_period fmt_val parse_val rnd fmt_period_nonempty period_roundtrip
    value_roundtrip rnd_keeps_missing o nan_roundtrip db db1 Hfs Hgood. destruct default_order_facts as [Hnd Hmem].
  apply (csv_lossless A miss_law fmt_period parse_period fmt_val parse_val rnd fmt_period_nonempty period_roundtrip
           value_roundtrip o nan_roundtrip miss_is_miss db rnd_keeps_missing).
  - rewrite Hfs. unfold default_fspan. rewrite map_map. cbn [fst]. now rewrite map_id.
  - intros n d s Hget. fold db1 in Hget. destruct (Hgood n d s Hget) as (G1 & G2 & G3 & G4 & G5 & G6 & G7).
    destruct (default_span_of_series A o db1 n d s (ND_shallow A db _ _) Hfs Hget G5 G6 G7) as (st & Es & Ef & Hin & Hc).
    repeat (split; [assumption|]). split; [now apply marks_roundtrip, Hmem|].
    exists st, (span_of_freq A db1 (sfreq A s)). rewrite <- Ef. now repeat split.
Qed.
Print Assumptions C19_csv_lossless_default.

(* every frequency of the enum (regenerated from dates.py) is written as a mark that the import recognises *)
Theorem C19_csv_frequency_marks : forall f, In f (map snd freq_members) -> is_start (mark_of_freq f) = Some f.
Proof. exact marks_roundtrip. Qed.
Print Assumptions C19_csv_frequency_marks.

(* the exceptions are real (concrete sheets, evaluated): a name starting with "__" loses its block; a series
   whose observations are all missing comes back empty without its description *)
Theorem C19_csv_exceptions_refuted :
  CsvExamples.roundtrip false [("__x"%string, ISer OZArith "" (CsvExamples.ser [[Some 1]]));
                               ("b"%string, ISer OZArith "" (CsvExamples.ser [[Some 2]]))] = Ok []
  /\ CsvExamples.roundtrip true [("a"%string, ISer OZArith "about a" (CsvExamples.ser [[None]; [None]]));
                                 ("b"%string, ISer OZArith "about b" (CsvExamples.ser [[Some 2]]))]
     = Ok [("a"%string, ISer OZArith "" (empty_series OZArith 1)); ("b"%string, ISer OZArith "about b" (CsvExamples.ser [[Some 2]]))].
Proof. exact (conj CsvExamples.dunder_name_lost CsvExamples.all_missing_comes_back_empty). Qed.
Print Assumptions C19_csv_exceptions_refuted.

(* empty series (no observations, unknown frequency) in the sheet *)

(* the exporter's frequency -> periods table as the source builds it (_resolve_frequency_span; the keep test
   [fspan_keep] is regenerated from the source): a frequency that is a key of the frequency-span option and has at
   least one selected series -- the unknown frequency of empty series included -- is never dropped *)
Theorem C19_csv_table_keeps_every_frequency_with_series : forall A (db : databox A) fs f x,
  In (f, x) fs -> series_of_freq A db f <> [] -> In f (map fst (resolve_fspan_src A db fs)).
Proof.
  intros A db fs f x.
  intros Hin Hs. apply in_map_iff.
  exists (f, match x with Some l => l | None => span_of_freq A db f end). split; [reflexivity|].
  unfold resolve_fspan_src. apply in_flat_map. exists (f, x). split; [assumption|]. cbn [fst snd].
  destruct x; [now left|]. rewrite kept_entry by assumption. now left.
Qed.
Print Assumptions C19_csv_table_keeps_every_frequency_with_series.

(* ... and the sheet written with that table is the sheet of [export] (the subject of C19_csv_roundtrip), for every
   databox (any mix of frequencies, empty series, scalars, lists), name selection and option *)
Theorem C19_csv_export_table_same_sheet : forall A fmt_period fmt_val rnd (db : databox A) (o : wopts),
  export_src A fmt_period fmt_val rnd db o = export A fmt_period fmt_val rnd db o.
Proof.
  intros A fmt_period fmt_val rnd db o.
  change (export A fmt_period fmt_val rnd db o)
    with (hcat_all (blocks_of_table A fmt_period fmt_val rnd (selected A db o) o
                      (resolve_fspan A (selected A db o) (w_fspan o))
                      (total_rows (resolve_fspan A (selected A db o) (w_fspan o))))).
  unfold export_src. cbv zeta. unfold total_rows. rewrite fold_rows_src.
  rewrite blocks_src by (intros f H; exact H). reflexivity.
Qed.
Print Assumptions C19_csv_export_table_same_sheet.

(* a block without dated rows -- the __unknown__ block of empty series, in a sheet with or without data rows -- is
   read back as empty series carrying the names, variant counts (columns) and descriptions of its header.
   _partial: the composition with [export] for databoxes that mix dated and empty series is evaluated on instances
   (C19_csv_empty_series_examples) and compared with the implementation on every run, not proved in general *)
Theorem C19_csv_undated_block_partial : forall A parse_period parse_val (name_row desc_row : row) (data_rows : grid)
  (db : databox A) f dc ec,
  Forall (fun r => cell_at r dc = ""%string) data_rows ->
  (data_rows <> [] -> parse_period f ""%string <> None) ->
  import_block A parse_period parse_val name_row desc_row data_rows (Ok db) (f, dc, ec)
  = Ok (fold_left (fun d g => let '(cs, n, ds) := g in dset A d n (ISer A ds (empty_series A (length cs))))
                  (header_groups name_row desc_row dc ec) db).
Proof.
  intros A parse_period parse_val name_row desc_row data_rows db f dc ec.
  intros Hall Hp. unfold import_block, header_groups. destruct data_rows as [|r0 rest]; [reflexivity|].
  pose proof (filter_undated dc _ Hall) as Hf.
  inversion Hall as [|? ? H0 Hrest]; subst. rewrite H0.
  destruct (parse_period f ""%string) eqn:E; [|exfalso; apply Hp; [discriminate|reflexivity]].
  rewrite Hf. cbn [map all_some]. reflexivity.
Qed.
Print Assumptions C19_csv_undated_block_partial.

Theorem C19_csv_empty_series_examples :
  CsvExamples.roundtrip true [("e"%string, ISer OZArith "about e" (empty_series OZArith 1)); ("e2"%string, ISer OZArith "" (empty_series OZArith 3))]
  = Ok [("e"%string, ISer OZArith "about e" (empty_series OZArith 1)); ("e2"%string, ISer OZArith "" (empty_series OZArith 3))]
  /\ Csv4Examples.roundtrip' true [("e"%string, ISer OZArith "about e" (empty_series OZArith 2));
                                    ("a"%string, ISer OZArith "about a" (CsvExamples.ser [[Some 1]; [Some 2]]))]
     = Ok [("a"%string, ISer OZArith "about a" (CsvExamples.ser [[Some 1]; [Some 2]]));
           ("e"%string, ISer OZArith "about e" (empty_series OZArith 2))]
  /\ In (-1, None) default_fspan.
Proof. exact (conj CsvExamples.only_empty_series_roundtrip (conj Csv4Examples.mixed_empty_series_roundtrip Csv4Examples.default_table_has_unknown)). Qed.
Print Assumptions C19_csv_empty_series_examples.

(* databox -> dataslate on [from, from+n) -> databox: every requested name comes back as a series with one
   variant per dataslate variant whose value at (period, variant) is [expected]: the input value of that
   period (series variants and lists consumed exhaust-then-last, numbers constant, absent names missing),
   cleared outside the base columns when clipping to the base span is requested, replaced by the declared
   fallback only where missing and by the declared overwrite everywhere; missing outside the span; names
   that were not requested are absent *)
Theorem C19_slate_roundtrip : forall A, lawful A ->
  forall (db : databox A) nms fr from n (o : sopts A) trimmed db',
  slate_roundtrip A db (Some nms) fr from n o trimmed = Ok db' ->
  (forall nm, In nm nms ->
     exists s, dget A db' nm = Some (ISer A ""%string s) /\ WF A s /\ s_nv s = o_nvar o /\
               (trimmed = true -> Trimmed A s) /\
               forall t k, (k < o_nvar o)%nat ->
                 cell A s t k = if (from <=? t) && (t <? from + Z.of_nat n) then expected A db o nm k from t else miss A)
  /\ (forall nm, ~ In nm nms -> dget A db' nm = None).
Proof.
  intros A miss_law db nms fr from n o trimmed db'.
  unfold slate_roundtrip. destruct (from_databox A db (Some nms) fr from n o) as [sl|e] eqn:E; [|discriminate].
  intros H; inversion H; subst. clear H.
  destruct (to_databox_spec A miss_law sl nms fr from n (o_nvar o) trimmed) as [H1 H2]. split; [|exact H2].
  intros nm Hin. destruct (H1 nm Hin) as (s & q & Hnth & Hq & Hget & Hwf & Hnv & Htr & Hcell).
  exists s. repeat (split; [assumption|]).
  intros t k Hk. rewrite Hcell by assumption.
  destruct ((from <=? t) && (t <? from + Z.of_nat n)) eqn:Ein; [|reflexivity].
  apply andb_true_iff in Ein as [E1 E2]. apply Z.leb_le in E1. apply Z.ltb_lt in E2.
  rewrite (slate_cell_spec A db nms fr from n o sl k q (Z.to_nat (t - from)) E) by lia.
  rewrite Hnth. f_equal. lia.
Qed.
Print Assumptions C19_slate_roundtrip.

(* the dataslate as an object (multi-step use): removing periods from the start never moves a value to another
   period and keeps exactly the base periods that remain (a base column sitting exactly at the cut included);
   removing periods from the end keeps the remaining columns and base columns; to_databox(span="base") returns, for
   every name, the dataslate columns of the base span at the base periods and missing elsewhere *)
Theorem C19_slate_remove_start : forall A (d d' : dslate A) (k : Z), 0 <= k -> ds_remove_start A d k = Ok d' ->
  let j := Z.to_nat k in
  ds_names A d' = ds_names A d /\
  ds_periods A d' = skipn j (ds_periods A d) /\
  map (fun i => nth i (ds_periods A d') 0) (ds_base A d')
    = map (fun i => nth i (ds_periods A d) 0) (filter (fun i => Nat.leb j i) (ds_base A d)) /\
  forall kv q t, slate_cell A (ds_data A d') kv q t = slate_cell A (ds_data A d) kv q (j + t).
Proof.
  intros A d d' k.
  intros Hk H j. unfold ds_remove_start in H. destruct (Z.ltb_spec k 0); [lia|]. fold j in H.
  destruct (Nat.eqb_spec j 0) as [E|E].
  - inversion H; subst d'. rewrite E. cbn [skipn Nat.add]. repeat split; try reflexivity.
    f_equal. symmetry. apply filter_all. reflexivity.
  - inversion H; subst d'. cbn [ds_names ds_periods ds_base ds_data]. repeat split; try reflexivity.
    + rewrite map_map. apply map_ext_in. intros i Hi. apply filter_In in Hi as [_ Hi]. apply Nat.leb_le in Hi.
      rewrite nth_skipn'. f_equal. lia.
    + intros kv q t. rewrite slate_cell_map by (now destruct j). apply nth_skipn'.
Qed.
Print Assumptions C19_slate_remove_start.

Theorem C19_slate_remove_end : forall A (d d' : dslate A) (k : Z), 0 <= k -> ds_remove_end A d k = Ok d' ->
  let j := Z.to_nat k in
  (j = 0%nat -> d' = d) /\
  (j <> 0%nat ->
     ds_names A d' = ds_names A d /\
     ds_periods A d' = firstn (length (ds_periods A d) - j) (ds_periods A d) /\
     ds_base A d' = filter (fun i => Nat.ltb i (length (ds_periods A d'))) (ds_base A d) /\
     forall kv q t, (t < length (nth q (nth kv (ds_data A d) []) []) - j)%nat ->
       slate_cell A (ds_data A d') kv q t = slate_cell A (ds_data A d) kv q t).
Proof.
  intros A d d' k.
  intros Hk H j. unfold ds_remove_end in H. destruct (Z.ltb_spec k 0); [lia|]. fold j in H.
  destruct (Nat.eqb_spec j 0) as [E|E]; split; intros E'; try contradiction; [now inversion H|].
  inversion H; subst d'. cbn [ds_names ds_periods ds_base ds_data]. repeat split; try reflexivity.
  intros kv q t Ht. rewrite (slate_cell_map A (fun v => firstn (length v - j) v)) by reflexivity.
  now apply nth_firstn'.
Qed.
Print Assumptions C19_slate_remove_end.

Theorem C19_slate_to_databox_base : forall A, lawful A -> forall (d : dslate A) fr trimmed db' b0 rest,
  ds_base A d = b0 :: rest ->
  ds_to_databox A d fr true trimmed = Ok db' ->
  let p0 := nth b0 (ds_periods A d) 0 in
  let w := (Nat.min (S (last (ds_base A d) b0)) (ds_ncols A d) - b0)%nat in
  forall nm, In nm (ds_names A d) ->
    exists s q, nth q (ds_names A d) ""%string = nm /\ (q < length (ds_names A d))%nat /\
      dget A db' nm = Some (ISer A ""%string s) /\ WF A s /\ s_nv s = length (ds_data A d) /\
      forall t k, (k < length (ds_data A d))%nat ->
        cell A s t k = if (p0 <=? t) && (t <? p0 + Z.of_nat w)
                       then slate_cell A (ds_data A d) k q (b0 + Z.to_nat (t - p0)) else miss A.
Proof.
  intros A miss_law d fr trimmed db' b0 rest.
  intros Hb H p0 w nm Hin. unfold ds_to_databox in H. rewrite Hb in H. rewrite <- Hb in H.
  destruct (Nat.leb (length (ds_periods A d)) b0); [discriminate|]. inversion H; subst db'. clear H.
  fold p0 w. set (sl' := map (map (fun v : list (car A) => firstn w (skipn b0 v))) (ds_data A d)).
  destruct (proj1 (to_databox_spec A miss_law sl' (ds_names A d) fr p0 w (length (ds_data A d)) trimmed) nm Hin)
    as (s & q & Hnth & Hq & Hget & Hwf & Hnv & _ & Hcell).
  exists s, q. repeat (split; [assumption|]).
  intros t k Hk. rewrite Hcell by assumption.
  destruct ((p0 <=? t) && (t <? p0 + Z.of_nat w)) eqn:Ein; [|reflexivity].
  apply andb_true_iff in Ein as [E1 E2]. apply Z.leb_le in E1. apply Z.ltb_lt in E2.
  unfold sl'. rewrite (slate_cell_map A (fun v => firstn w (skipn b0 v))) by (now rewrite skipn_nil, firstn_nil).
  rewrite nth_firstn' by lia. apply nth_skipn'.
Qed.
Print Assumptions C19_slate_to_databox_base.

(* one operation: a name outside the operation's selection keeps its item *)
Theorem C19_ops_frame : forall A (rs : dregs A) (o : dop) (db' : databox A) n,
  dexec A rs o = Ok db' -> ~ touches A rs o n -> dget A db' n = dget A (getd A rs (op_dst o)) n.
Proof. intros A rs o db' n H Hn. apply dexec_writes in H. destruct o; try (now apply H). exfalso. now apply Hn. Qed.
Print Assumptions C19_ops_frame.

(* any history of operations over any number of databoxes: a name of register r that no operation selects
   keeps its item (induction over the history; the history stops at the first operation that raises) *)
Theorem C19_ops_frame_histories : forall A (ops : list dop) (rs : dregs A) r n,
  (r < length rs)%nat -> untouched A rs ops r n ->
  dget A (getd A (fst (drun A rs ops)) r) n = dget A (getd A rs r) n.
Proof.
  intros A ops.
  induction ops as [|o tl IH]; intros rs r n Hr Hu; cbn [drun]; [reflexivity|].
  cbn [untouched] in Hu. destruct Hu as [Hu1 Hu2].
  destruct (dexec A rs o) as [d|e] eqn:E; [|reflexivity].
  specialize (IH (setd A rs (op_dst o) d) r n).
  destruct (drun A (setd A rs (op_dst o) d) tl) as [rs2 outs]. cbn [fst] in *.
  rewrite IH by (try rewrite setd_length; assumption).
  destruct (Nat.eq_dec (op_dst o) r) as [Er|Er].
  - rewrite Er, getd_setd_same by assumption. rewrite <- Er. apply C19_ops_frame; [assumption|]. now apply Hu1.
  - now rewrite getd_setd_other.
Qed.
Print Assumptions C19_ops_frame_histories.

(* names stay unique along every history (the model state is a dictionary) *)
Theorem C19_ops_unique_names : forall A (ops : list dop) (rs : dregs A), AllND A rs -> AllND A (fst (drun A rs ops)).
Proof.
  intros A ops.
  apply drun_inv. intros rs o d _ H E. apply setd_ND; [assumption|]. eapply dexec_ND; eauto.
Qed.
Print Assumptions C19_ops_unique_names.

(* remove / keep: dictionary semantics on exactly the resolved names *)
Theorem C19_remove_spec : forall A (db db' : databox A) (s : sel), ND A db -> d_remove A db s = Ok db' ->
  ND A db' /\ forall k, dget A db' k =
    match s with SelAll => dget A db k | _ => if smem k (sel_resolved A db s) then None else dget A db k end.
Proof.
  intros A db db' s.
  intros Hnd H. unfold d_remove in H.
  destruct s; [inversion H; subst; split; [assumption|reflexivity]| |];
    (split; [now apply (remove_fold_writes A _ _ _ H)|now apply remove_fold_spec]).
Qed.
Print Assumptions C19_remove_spec.

Theorem C19_keep_spec : forall A (db : databox A) (s : sel), ND A db ->
  ND A (d_keep A db s) /\ forall k, dget A (d_keep A db s) k =
    match s with SelAll => dget A db k | _ => if smem k (sel_resolved A db s) then dget A db k else None end.
Proof.
  intros A db s.
  intros Hnd. split; [now apply keep_ND|apply keep_get].
Qed.
Print Assumptions C19_keep_spec.

(* rename / copy with an injective renaming onto names that are not sources: every target holds its source's
   item, renamed sources disappear, everything else is untouched (rename) or absent (copy) *)
Theorem C19_rename_spec : forall A (db : databox A) (s : sel) (t : tgt), ND A db ->
  let ps := resolve (names A db) s t in
  NoDup (map fst ps) -> NoDup (map snd ps) -> (forall x, In x (map snd ps) -> ~ In x (map fst ps)) ->
  exists db', d_rename A db s t = Ok db' /\ ND A db' /\
    forall k, dget A db' k = match tgt_src ps k with
                             | Some src => dget A db src
                             | None => if smem k (map fst ps) then None else dget A db k
                             end.
Proof.
  intros A db s t.
  intros Hnd ps Hs Ht Hdis. unfold d_rename. fold ps.
  destruct (rename_pairs_spec A ps db Hnd Hs Ht Hdis) as (db' & E & G).
  - intros x Hx. eapply resolve_sources_in; eauto.
  - exists db'. split; [assumption|]. split; [now apply (rename_pairs_writes A _ _ _ E)|assumption].
Qed.
Print Assumptions C19_rename_spec.

Theorem C19_copy_spec : forall A (db : databox A) (s : sel) (t : tgt), ND A db -> (s <> SelAll \/ t <> TgtSame) ->
  let ps := resolve (names A db) s t in
  NoDup (map fst ps) -> NoDup (map snd ps) -> (forall x, In x (map snd ps) -> ~ In x (map fst ps)) ->
  exists db', d_copy A db s t = Ok db' /\ ND A db' /\
    forall k, dget A db' k = match tgt_src ps k with Some src => dget A db src | None => None end.
Proof.
  intros A db s t.
  intros Hnd Hst ps Hs Ht Hdis.
  assert (Hin : forall x, In x (map fst ps) -> In x (names A db)) by (intros x Hx; eapply resolve_sources_in; eauto).
  destruct (d_copy_cases A db s t) as [(-> & -> & _)|E0]; [destruct Hst; congruence|]. rewrite E0. fold ps. cbv zeta.
  destruct (C19_rename_spec A db (SelList (map fst ps)) (TgtList (map snd ps)) Hnd) as (d1 & E1 & Hnd1 & G1);
    try (rewrite resolve_lists by assumption; assumption).
  rewrite resolve_lists in G1 by assumption.
  rewrite E1. eexists. split; [reflexivity|].
  split; [now apply keep_ND|].
  (* a target is kept if it is a key after the renaming, and if it is not it holds nothing anyway *)
  intros k. rewrite keep_get, sel_resolved_filter, smem_filter. cbn [sel_names].
  destruct (tgt_src ps k) as [src|] eqn:Ek.
  - destruct (smem k (names A d1)) eqn:Hk; [|apply smem_false, dget_None in Hk]; rewrite G1, Ek in *.
    + now rewrite andb_true_r, (proj2 (smem_In _ _)) by (apply tgt_src_Some in Ek; apply in_map_iff; now exists (src, k)).
    + now rewrite andb_false_r.
  - apply tgt_src_None, smem_false in Ek. now rewrite Ek.
Qed.
Print Assumptions C19_copy_spec.

(* overlay / underlay: every selected name that is a series of a known frequency in both databoxes, with equal
   frequencies, becomes Series.overlay / Series.underlay of the two series (C10 gives their period-by-period
   meaning); every other name keeps its item; the key order does not change *)
Theorem C19_lay_spec : forall A (under : bool) (db other db' : databox A) ns, ND A db ->
  d_lay A under db other ns = Ok db' ->
  ND A db' /\ names A db' = names A db /\
  forall k, dget A db' k =
    if smem k (lay_names A db other ns)
    then match lay_result A under db other k with Ok (Some it) => Some it | _ => dget A db k end
    else dget A db k.
Proof.
  intros A under db other db' ns.
  intros Hnd H. split; [now apply (lay_fold_writes A _ _ _ _ _ H)|]. apply (lay_fold_spec A under other _ db db'); [|exact H].
  unfold lay_names. destruct ns as [l|]; apply NoDup_filter; [apply NoDup_nodup|assumption].
Qed.
Print Assumptions C19_lay_spec.

(* clip: Series.clip on exactly the series of the frequency of the given period(s) *)
Theorem C19_clip_spec : forall A (db : databox A) f a b, ND A db ->
  ND A (d_clip A db f a b) /\ forall k, dget A (d_clip A db f a b) k =
    match a, b with
    | None, None => dget A db k
    | _, _ => option_map (clip_item A f a b) (dget A db k)
    end.
Proof. intros A db f a b Hnd. split; [now apply clip_ND|intros k; apply clip_get]. Qed.
Print Assumptions C19_clip_spec.

(* prepend is underlay with the other databox clipped at the end period *)
Theorem C19_prepend_spec : forall A (db other : databox A) f e,
  d_prepend A db other f e = d_lay A true db (d_clip A other f None (Some e)) None.
Proof. reflexivity. Qed.
Print Assumptions C19_prepend_spec.

(* merge of one databox: new keys are added, duplicate keys are combined by the strategy, other keys untouched *)
Theorem C19_merge_spec : forall A (db other db' : databox A) (st : strategy), ND A db -> ND A other ->
  d_merge A db [other] st = Ok db' ->
  ND A db' /\ forall k, merged A st db other k (dget A db' k).
Proof.
  intros A db other db' st.
  intros Hnd Hno H. apply d_merge_inv in H as [dup H]. cbn [List.concat] in H. rewrite app_nil_r in H.
  split; [exact (concat_ND_fold A _ _ _ _ _ _ Hnd H)|exact (merge_fold_spec A _ _ _ _ _ _ Hno H)].
Qed.
Print Assumptions C19_merge_spec.

(* merge of ANY list of databoxes in one call: the result is a chain of single-databox merges (C19_merge_spec for
   every link), each against the keys present at that moment *)
Theorem C19_merge_many_spec : forall A (db : databox A) others db' st, ND A db -> Forall (ND A) others ->
  d_merge A db others st = Ok db' -> ND A db' /\ merge_chain A st db others db'.
Proof. intros A db others db' st Hnd Hall H. apply d_merge_inv in H as [dup H]. eapply merge_many_fold; eauto. Qed.
Print Assumptions C19_merge_many_spec.

(* ... hence every key holds the strategy folded over ALL its occurrences in the merged databoxes, in their order,
   starting from the target's own item: also a key that is new to the target and occurs in two merged databoxes *)
Theorem C19_merge_many_key : forall A (db : databox A) others db' st, ND A db -> Forall (ND A) others ->
  d_merge A db others st = Ok db' ->
  forall k, merge_key A st (dget A db k) (occurrences A others k) = Ok (dget A db' k).
Proof. intros A db others db' st Hnd Hall H. apply merge_chain_key. eapply C19_merge_many_spec; eauto. Qed.
Print Assumptions C19_merge_many_key.

Theorem C19_merge_two_new_key : forall A (db b c db' : databox A) st k v1 v2, ND A db -> ND A b -> ND A c ->
  d_merge A db [b; c] st = Ok db' -> dget A db k = None -> dget A b k = Some v1 -> dget A c k = Some v2 ->
  exists it, merge_val A st v1 v2 = Ok it /\ dget A db' k = Some it.
Proof.
  intros A db b c db' st k v1 v2.
  intros Hd Hb Hc H E0 E1 E2.
  pose proof (C19_merge_many_key A db [b; c] db' st Hd (Forall_cons _ Hb (Forall_cons _ Hc (Forall_nil _))) H k) as Hk.
  unfold occurrences in Hk. cbn [flat_map app] in Hk. rewrite E0, E1, E2 in Hk. cbn [app merge_key] in Hk.
  destruct (merge_val A st v1 v2) as [it|e]; [|discriminate]. exists it. split; [reflexivity|]. now inversion Hk.
Qed.
Print Assumptions C19_merge_two_new_key.

Theorem C19_merge_many_examples :
  d_merge OZArith [] [[("k"%string, Merge4Examples.sc 2)]; [("k"%string, Merge4Examples.sc 3)]] MDiscard = Ok [("k"%string, Merge4Examples.sc 2)]
  /\ d_merge OZArith [] [[("k"%string, Merge4Examples.sc 2)]; [("k"%string, Merge4Examples.sc 3)]] (MReport true) = Err 2%nat.
Proof. exact (conj Merge4Examples.discard_keeps_first Merge4Examples.error_on_duplicate_among_others). Qed.
Print Assumptions C19_merge_many_examples.

(* merge with the strategies error / critical over ANY list of databoxes *)

(* error / critical raise iff some key occurs twice among the keys of the target and of the merged databoxes (for every
   target and every list of databoxes); when no key occurs twice the result is the target followed by all items of the
   merged databoxes in their order *)
Theorem C19_merge_error_raises_iff : forall A (db : databox A) others, ND A db ->
  (d_merge A db others (MReport true) = Err 2%nat <-> ~ NoDup (all_keys A db others)).
Proof.
  intros A db others.
  intros Hnd. destruct (merge_error_spec A db others Hnd) as [H1 H2]. split; [|exact H2].
  intros He Hn. rewrite (H1 Hn) in He. discriminate.
Qed.
Print Assumptions C19_merge_error_raises_iff.

Theorem C19_merge_error_spec : forall A (db : databox A) others, ND A db ->
  (NoDup (all_keys A db others) -> d_merge A db others (MReport true) = Ok (db ++ concat others)) /\
  (~ NoDup (all_keys A db others) -> d_merge A db others (MReport true) = Err 2%nat).
Proof. exact merge_error_spec. Qed.
Print Assumptions C19_merge_error_spec.

(* merge is an in-place procedure: [merge_report_state critical db others] (model/Merge6.v, compared with the target
   databox of the implementation after the call returned OR raised, on every run) is the target after the call and
   whether a duplicate key was met.  The value / exception of d_merge is determined by the run of the loop to its end: *)
Theorem C19_merge_report_run : forall A (db : databox A) others r,
  d_merge A db others (MReport r)
  = let '(d, dup) := merge_report_state A false db others in if r && dup then Err 2%nat else Ok d.
Proof.
  intros A db others r.
  unfold d_merge, merge_report_state. rewrite report_fold. cbn [orb].
  destruct (report_run A false db (concat others)) as [d dup]. cbn [fst snd].
  destruct r; [destruct dup|]; reflexivity.
Qed.
Print Assumptions C19_merge_report_run.

(* error and critical meet a duplicate (raise) in exactly the same cases *)
Theorem C19_merge_report_dup_iff : forall A c (db : databox A) others, ND A db ->
  (snd (merge_report_state A c db others) = true <-> ~ NoDup (all_keys A db others)).
Proof.
  intros A c db others.
  intros Hnd. unfold merge_report_state, all_keys. rewrite names_concat. now apply report_dup_iff.
Qed.
Print Assumptions C19_merge_report_dup_iff.

(* the target after silent / warning / error -- ALSO when error raised (the stream raises after the loop): every
   existing key keeps its item, every new key holds its first occurrence in the merged databoxes.  "A raising merge
   changes nothing" is therefore NOT what the code does (refuted on an instance below): what holds is that no EXISTING
   item is changed or removed *)
Theorem C19_merge_error_state : forall A (db : databox A) others k,
  dget A (fst (merge_report_state A false db others)) k
  = match dget A db k with Some v => Some v | None => dget A (concat others) k end.
Proof. intros A db others k. apply report_state_get. Qed.
Print Assumptions C19_merge_error_state.

(* the target after critical (raises at the first duplicate): the items met before the first duplicate were added *)
Theorem C19_merge_critical_state : forall A (db : databox A) others,
  fst (merge_report_state A true db others) = db ++ fresh_prefix A (names A db) (concat others).
Proof. intros A db others. apply report_critical_state. intros x. reflexivity. Qed.
Print Assumptions C19_merge_critical_state.

Theorem C19_merge_report_keeps_existing : forall A c (db : databox A) others k v,
  dget A db k = Some v -> dget A (fst (merge_report_state A c db others)) k = Some v.
Proof.
  intros A c db others k v.
  intros H. destruct c.
  - rewrite C19_merge_critical_state. now apply dget_app_some.
  - rewrite C19_merge_error_state. now rewrite H.
Qed.
Print Assumptions C19_merge_report_keeps_existing.

(* non-vacuity, and the refutation of "nothing is changed when it raises": target {a}, merged {x, a, y} and {y, z} *)
Theorem C19_merge_report_examples :
  merge_report_state OZArith false Merge6Examples.T [Merge6Examples.B; Merge6Examples.C]
  = ([("a"%string, Merge6Examples.sc 1); ("x"%string, Merge6Examples.sc 2); ("y"%string, Merge6Examples.sc 4);
      ("z"%string, Merge6Examples.sc 6)], true)
  /\ merge_report_state OZArith true Merge6Examples.T [Merge6Examples.B; Merge6Examples.C]
     = ([("a"%string, Merge6Examples.sc 1); ("x"%string, Merge6Examples.sc 2)], true)
  /\ d_merge OZArith Merge6Examples.T [Merge6Examples.B; Merge6Examples.C] (MReport true) = Err 2%nat
  /\ (NoDup (all_keys OZArith Merge6Examples.T [Merge6Examples.C])
      /\ d_merge OZArith Merge6Examples.T [Merge6Examples.C] (MReport true) = Ok (Merge6Examples.T ++ Merge6Examples.C)).
Proof. exact (conj Merge6Examples.error_state (conj Merge6Examples.critical_state (conj Merge6Examples.error_raises Merge6Examples.no_duplicate))). Qed.
Print Assumptions C19_merge_report_examples.


(* a databox that is not the destination of any operation of a history keeps all its items, whatever is done to
   the other databoxes: the result of copy (a register of its own) and its source never influence each other.
   (The model has value semantics; that the implementation's databoxes do not share mutable items is checked by
   the correspondence, which compares EVERY databox of the session after each history, and by the falsifier.) *)
Theorem C19_ops_other_databoxes_untouched : forall A (ops : list dop) (rs : dregs A) r,
  (forall o, In o ops -> op_dst o <> r) -> getd A (fst (drun A rs ops)) r = getd A rs r.
Proof.
  intros A ops.
  intros rs r Hr. apply (drun_inv A (fun rs' => getd A rs' r = getd A rs r)); [|reflexivity].
  intros rs' o d Ho H _. rewrite getd_setd_other; [assumption|now apply Hr].
Qed.
Print Assumptions C19_ops_other_databoxes_untouched.

(* the selected periods of a block are an arbitrary list (Span with any step, descending, hand-picked) *)

(* the array the exporter builds (one array per name read through the accessor regenerated from the source, stacked by
   hstack behind an empty lead): row i holds the values of all series of the block AT period i of the selected list *)
Theorem C19_csv_data_array_rows : forall A (its : list (string * (string * series A))) ps,
  data_array A its ps = map (fun t => flat_map (fun p => row_at A (snd (snd p)) t) its) ps.
Proof. exact data_array_rows. Qed.
Print Assumptions C19_csv_data_array_rows.

(* the block as the source assembles it (zip of the selected periods with the rows of that array) is the block of
   model/Csv.v that C19_csv_roundtrip / C19_csv_values_on_span are about -- for every list of periods *)
Theorem C19_csv_block_of_source : forall A fmt_period fmt_val rnd (o : wopts) total f ps
  (its : list (string * (string * series A))),
  block_grid_src A fmt_period fmt_val rnd o total f ps its = block_grid A fmt_period fmt_val rnd o total f ps its.
Proof. intros A fmt_period fmt_val rnd o total f ps its. unfold block_grid_src. now rewrite data_rows_src_eq. Qed.
Print Assumptions C19_csv_block_of_source.

(* in the sheet, next to the date of the i-th selected period stand, for every series of the block, its (rounded)
   values at THAT period *)
Theorem C19_csv_row_holds_values_at_its_period : forall A fmt_period fmt_val rnd (o : wopts) total f ps
  (its : list (string * (string * series A))) i,
  (i < length ps)%nat ->
  nth ((if w_desc o then 2 else 1) + i) (block_grid_src A fmt_period fmt_val rnd o total f ps its) []
  = fmt_period f (nth i ps 0)
    :: flat_map (fun p => map (val_cell A fmt_val rnd (w_nan o)) (row_at A (snd (snd p)) (nth i ps 0))) its
    ++ [""%string].
Proof.
  intros A fmt_period fmt_val rnd o total f ps its i.
  intros Hi. rewrite C19_csv_block_of_source. unfold block_grid. cbv zeta.
  match goal with |- nth _ (?h0 ++ ?d0 ++ ?r0 ++ ?p0) [] = _ => set (h := h0); set (d := d0); set (rows := r0); set (pad := p0) end.
  assert (E : nth ((if w_desc o then 2 else 1) + i) (h ++ d ++ rows ++ pad) [] = nth i (rows ++ pad) []).
  { rewrite app_assoc. assert (Hl : length (h ++ d) = (if w_desc o then 2 else 1)%nat)
      by (unfold h, d; destruct (w_desc o); reflexivity).
    rewrite <- Hl. apply app_nth2_plus. }
  refine (eq_trans E _). rewrite app_nth1 by (unfold rows; now rewrite map_length).
  unfold rows.
  match goal with |- nth i (map ?F0 ps) _ = _ => set (F := F0) end.
  rewrite nth_indep with (d' := F 0) by now rewrite map_length.
  exact (map_nth F ps 0 i).
Qed.
Print Assumptions C19_csv_row_holds_values_at_its_period.

(* one slice from the first to the last selected period is the same data exactly on runs of consecutive increasing
   periods ... *)
Theorem C19_csv_slice_equals_lookup_on_runs : forall A (s : series A) a b, a <= b ->
  sliced_rows A s (zrange a (b + 1)) = get_data A s (zrange a (b + 1)).
Proof.
  intros A s a b.
  intros H. unfold sliced_rows, get_data_from_until, get_data.
  destruct (zrange_hd_last a b H) as [-> ->]. reflexivity.
Qed.
Print Assumptions C19_csv_slice_equals_lookup_on_runs.

(* ... and not on other lists of distinct periods (every second period; a descending span) *)
Theorem C19_csv_slice_refuted :
  (exists (s : series OZArith) ps, NoDup ps /\ sliced_rows OZArith s ps <> get_data OZArith s ps) /\
  sliced_rows OZArith s5 [10; 12; 14] = [[Some 1]; [Some 2]; [Some 3]; [Some 4]; [Some 5]] /\
  get_data OZArith s5 [10; 12; 14] = [[Some 1]; [Some 3]; [Some 5]] /\
  sliced_rows OZArith s5 [12; 11; 10] = [] /\
  get_data OZArith s5 [12; 11; 10] = [[Some 3]; [Some 2]; [Some 1]].
Proof.
  split; [|repeat split; reflexivity].
  exists s5, [10; 12; 14]. split.
  - repeat constructor; cbn; intuition discriminate.
  - vm_compute. discriminate.
Qed.
Print Assumptions C19_csv_slice_refuted.


(* REPEATED periods in an explicit period list (span= / frequency_span=) *)
(* C19_csv_roundtrip, C19_csv_values_on_span and C19_csv_row_holds_values_at_its_period hold for lists with
   repeats (no NoDup premise on the periods).  Explicitly: the sheet holds one row per POSITION of the list, and two
   positions holding the same period get identical rows ... *)
Theorem C19_csv_rows_of_repeated_period : forall A fmt_period fmt_val rnd (o : wopts) total f ps
  (its : list (string * (string * series A))) i j,
  (i < length ps)%nat -> (j < length ps)%nat -> nth i ps 0 = nth j ps 0 ->
  nth ((if w_desc o then 2 else 1) + i) (block_grid_src A fmt_period fmt_val rnd o total f ps its) []
  = nth ((if w_desc o then 2 else 1) + j) (block_grid_src A fmt_period fmt_val rnd o total f ps its) [].
Proof.
  intros A fmt_period fmt_val rnd o total f ps its i j.
  intros Hi Hj E. rewrite !C19_csv_row_holds_values_at_its_period by assumption. now rewrite E.
Qed.
Print Assumptions C19_csv_rows_of_repeated_period.

(* ... and the import (dated rows are stored by Series.set_data: the LAST row of a period wins) returns a series that
   depends only on the SET of selected periods: repeats and order change nothing *)
Theorem C19_csv_import_periods_as_set : forall A, lawful A -> is_miss A (miss A) = true ->
  forall (rnd : car A -> car A) f ps ps' (s : series A), WF A s -> (forall t, In t ps <-> In t ps') ->
  imp_series A rnd f ps s = imp_series A rnd f ps' s.
Proof. exact imp_series_periods_as_set. Qed.
Print Assumptions C19_csv_import_periods_as_set.

Theorem C19_csv_import_repeats_dropped : forall A, lawful A -> is_miss A (miss A) = true ->
  forall (rnd : car A -> car A) f ps (s : series A), WF A s ->
  imp_series A rnd f ps s = imp_series A rnd f (nodup Z.eq_dec ps) s.
Proof.
  intros A miss_law miss_is_miss rnd f ps s.
  intros Hwf. apply (imp_series_periods_as_set A miss_law miss_is_miss); [assumption|]. intros t. symmetry. apply nodup_In.
Qed.
Print Assumptions C19_csv_import_repeats_dropped.

Theorem C19_csv_repeated_period_example :
  imp_series OZArith (fun x => x) 1 [10; 11; 10] s5 = imp_series OZArith (fun x => x) 1 [10; 11] s5 /\ ~ NoDup [10; 11; 10].
Proof. exact Csv6Examples.repeated_period_same_series. Qed.
Print Assumptions C19_csv_repeated_period_example.

(* non-vacuity: a lawful carrier, a concrete sheet that round-trips *)
Example C19_nonvacuous :
  lawful OZArith /\
  CsvExamples.roundtrip true [("a"%string, ISer OZArith "about a" (CsvExamples.ser [[Some 1]; [None]; [Some 2]]));
                              ("k"%string, INon (@EScal OZArith (Some 3)))]
  = Ok [("a"%string, ISer OZArith "about a" (CsvExamples.ser [[Some 1]; [None]; [Some 2]]))].
Proof. split; [exact OZ_miss_law|exact CsvExamples.roundtrip_ok]. Qed.
