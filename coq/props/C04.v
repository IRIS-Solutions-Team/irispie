(* C04  Model source text is translated to equations without changing their meaning.
   The lemmas the proofs rest on are in proofs/LangProofs.v, proofs/LangStyleProofs.v (style variants,
   quantities) and proofs/MakersProofs.v (compiled functions).

   The model (model/Lang.v) works one level above the text: token lists and syntax
   trees.  pseudo_template, mov_sequence, pseudo_resolution, shift_name_new,
   residual_template, kind_order, entry_order, loggable_kinds and the ant_/std_
   prefixes come from gen/PseudoGen.v, regenerated from parsers/_pseudofunctions.py,
   equations.py, quantities.py, sources.py, simultaneous/_invariants.py on every run.
   The character-level regular expressions, the PEG grammars (parsimonious) and Jinja
   are glue: exercised by the correspondence run of harness/C04.py, NOT modelled. *)
From Coq Require Import ZArith List String Bool Ring Lia.
From Verif Require Import lib.MakersSyntax gen.MakersGen model.Makers proofs.MakersProofs.
From Verif Require Import lib.LangSyntax gen.PseudoGen model.Lang proofs.LangProofs proofs.LangStyleProofs.
Import ListNotations.
Open Scope Z_scope.

(* 1. _shift_all_names: the shifted expression denotes the expression at the shifted date,
      for every expression, environment, date and shift, over any carrier *)
Theorem C04_shiftE_sem : forall (C : carrier) (N : Type) (rho : N -> Z -> val C) (e : cexpr N) (k t : Z),
  sem C rho (shiftE k e) t = sem C rho e (t + k).
Proof. exact @shiftE_sem. Qed.
Print Assumptions C04_shiftE_sem.

(* 2. resolve_pseudofunctions: the expansion built from the generated string templates denotes the
      documented formula (pseudo_sem in model/Lang.v), for every expression tree, environment and date *)
Theorem C04_expand_sem : forall C vinv, lawful C vinv ->
  forall (N : Type) (rho : N -> Z -> val C) (e : cexpr N) (t : Z), sem C rho (expand e) t = sem C rho e t.
Proof. intros C vinv [H1 H2] N rho. exact (expand_sem C rho vinv H1 H2). Qed.
Print Assumptions C04_expand_sem.

(*    ... spelled out per pseudofunction name: diff(e,k) = e - e[k], pct(e,k) = 100 (e/e[k] - 1),
      mov_sum(e,-n) = sum_{i<n} e[-i], ..., default shifts -1 and -4 *)
Theorem C04_pseudo_formulas : forall C vinv, lawful C vinv -> pseudo_formulas_statement C.
Proof.
  intros C vinv L N rho e t. cbv zeta.
  repeat apply conj.
  1-6: intros k; erewrite (pseudo_call_sem C vinv L) by reflexivity;
       unfold pseudo_sem, resolve_shift; rewrite ?Z.add_0_r; reflexivity.
  (* the windows and the defaults, spelling by spelling *)
  1-3: intros n.
  all: apply Forall_forall.
  4-5: repeat (apply Forall_cons; [eapply (pseudo_default C vinv L); reflexivity|]); apply Forall_nil.
  - repeat (apply Forall_cons; [split; [apply (movsum_formula C vinv L rho _ (-4) e t true n)
                                       | apply (movsum_formula C vinv L rho _ (-4) e t false n)]; reflexivity|]).
    apply Forall_nil.
  - repeat (apply Forall_cons; [apply (movavg_formula C vinv L rho _ (-4) e t true n); reflexivity|]). apply Forall_nil.
  - repeat (apply Forall_cons; [apply (movprod_formula C vinv L rho _ (-4) e t true n); reflexivity|]). apply Forall_nil.
Qed.
Print Assumptions C04_pseudo_formulas.

(*    ... and every builder's string is delimited by its own parentheses with every hole directly inside
      parentheses, which is what makes the splice into the equation text a substitution in the tree *)
Theorem C04_templates_self_delimiting :
  (forall p, tpl_closed (pseudo_template p) = true /\ holes_safe false (pseudo_template p) = true)
  /\ (forall s, mov_elems_ok s = true).
Proof.
  split.
  - intros p. destruct p; split; reflexivity.
  - intros s. unfold mov_elems_ok. rewrite mov_sequence_spec.
    destruct (s =? 0); [reflexivity|]. destruct ((s =? 1) || (s =? -1)); [reflexivity|].
    cbn [fst]. apply orb_true_iff. right. rewrite forallb_forall. intros x Hx.
    apply in_map_iff in Hx. destruct Hx as [sh [<- _]]. reflexivity.
Qed.
Print Assumptions C04_templates_self_delimiting.

Theorem C04_resolution_table :
  lookup_pseudo pseudo_resolution "shift" = Some (Pshift, -1) /\
  lookup_pseudo pseudo_resolution "diff" = Some (Pdiff, -1) /\
  lookup_pseudo pseudo_resolution "diff_log" = Some (Pdifflog, -1) /\
  lookup_pseudo pseudo_resolution "difflog" = Some (Pdifflog, -1) /\
  lookup_pseudo pseudo_resolution "pct" = Some (Ppct, -1) /\
  lookup_pseudo pseudo_resolution "roc" = Some (Proc, -1) /\
  lookup_pseudo pseudo_resolution "mov_sum" = Some (Pmovsum, -4) /\
  lookup_pseudo pseudo_resolution "movsum" = Some (Pmovsum, -4) /\
  lookup_pseudo pseudo_resolution "mov_avg" = Some (Pmovavg, -4) /\
  lookup_pseudo pseudo_resolution "movavg" = Some (Pmovavg, -4) /\
  lookup_pseudo pseudo_resolution "mov_prod" = Some (Pmovprod, -4) /\
  lookup_pseudo pseudo_resolution "movprod" = Some (Pmovprod, -4).
Proof. repeat split; reflexivity. Qed.
Print Assumptions C04_resolution_table.

(* 3. the compiled equation: _postprocess_xtring builds -(lhs)+rhs ... *)
Theorem C04_residual_template : residual_template = TBin Add (TNeg (TParen TCode)) TShifted.
Proof. reflexivity. Qed.
Print Assumptions C04_residual_template.

(*    ... and the xtring of every dynamic and steady equation denotes rhs - lhs of the equation as written
      after macro expansion (side_written: !for/!if inside the equation resolved, <...> evaluated,
      $substitutions$ inlined, pseudofunctions expanded), on arbitrary data X, with the names read at their
      quantity ids and every transition shock of a dynamic transition equation read as shock + anticipated shock *)
Theorem C04_xtring_sem : forall C vinv, lawful C vinv ->
  forall cx subs be names shocks s l r x,
  side_written cx subs be s = Some (l, r) ->
  compile_side cx subs be names shocks s = Some x ->
  forall (X : Z -> Z -> val C) t,
    sem C X x t = vsub C (sem C (rho_model C names shocks X) r t) (sem C (rho_model C names shocks X) l t).
Proof. intros C vinv [H1 _]. exact (xtring_sem C H1). Qed.
Print Assumptions C04_xtring_sem.

(*    when the anticipated shocks are zero the compiled dynamic equation is rhs - lhs as written *)
Theorem C04_xtring_sem_no_anticipation : forall C vinv, lawful C vinv ->
  forall cx subs be names shocks s l r x,
  side_written cx subs be s = Some (l, r) ->
  compile_side cx subs be names shocks s = Some x ->
  forall (X : Z -> Z -> val C),
    (forall n k, mem_s n shocks = true ->
       rho_names C (fun n => index_of n names 0) X (append ant_prefix n) k = vnum C 0 0) ->
    forall t, sem C X x t = vsub C (sem C (rho_names C (fun n => index_of n names 0) X) r t)
                                   (sem C (rho_names C (fun n => index_of n names 0) X) l t).
Proof.
  intros C vinv [H1 H2] cx subs be names shocks s l r x Hw Hc X Hz t.
  rewrite (xtring_sem C H1 _ _ _ _ _ _ _ _ _ Hw Hc X t).
  assert (E : forall n k, rho_model C names shocks X n k = rho_names C (fun n => index_of n names 0) X n k).
  { intros n k. unfold rho_model, rho_ant. destruct (mem_s n shocks) eqn:Em; [|reflexivity].
    rewrite (Hz n k Em). destruct H1. rewrite Radd_comm. apply Radd_0_l. }
  rewrite !(sem_ext C _ _ _ E). reflexivity.
Qed.
Print Assumptions C04_xtring_sem_no_anticipation.

(* 4. _resolve_sequence: on every well-nested sequence (the flattening of a forest of any depth) the
      result is the expansion -- a loop is the concatenation over its tokens of its body with the control
      name replaced, a conditional is its selected branch -- and a bounded fuel suffices *)
Theorem C04_resolve_well_nested : forall (T : Type) (sub : string -> string -> T -> T) cx (f : list node) out,
  expands sub cx f out ->
  exists n, forall fuel, (n <= fuel)%nat -> resolve sub cx true fuel (flatten f) = ROk out.
Proof. exact @resolve_flatten. Qed.
Print Assumptions C04_resolve_well_nested.

Theorem C04_for_expansion : forall (T : Type) (sub : string -> string -> T -> T) cx c toks (body : list node) tl outs,
  tokens_of cx toks = Some tl ->
  Forall2 (fun tok o => expands sub cx (map (subst_node sub c tok) body) o) tl outs ->
  expands sub cx [NFor c toks body] (List.concat outs)
  /\ exists n, forall fuel, (n <= fuel)%nat ->
       resolve sub cx true fuel (DFor c toks :: flatten body ++ [DEnd]) = ROk (List.concat outs).
Proof. exact @for_expansion. Qed.
Print Assumptions C04_for_expansion.

Theorem C04_if_selection : forall (T : Type) (sub : string -> string -> T -> T) cx cd (th : list node) el b out,
  cond_eval cx cd = Some b ->
  expands sub cx (if b then th else match el with Some l => l | None => [] end) out ->
  expands sub cx [NIf cd th el] out
  /\ exists n, forall fuel, (n <= fuel)%nat -> resolve sub cx true fuel (flatten [NIf cd th el]) = ROk out.
Proof. exact @if_selection. Qed.
Print Assumptions C04_if_selection.

(*    the expansion is unique *)
Theorem C04_expansion_deterministic : forall (T : Type) (sub : string -> string -> T -> T) cx (f : list node) o1 o2,
  expands sub cx f o1 -> expands sub cx f o2 -> o1 = o2.
Proof.
  intros T sub cx f o1 o2 H1 H2.
  destruct (resolve_flatten sub cx _ _ H1) as [n1 E1]. destruct (resolve_flatten sub cx _ _ H2) as [n2 E2].
  specialize (E1 (Nat.max n1 n2) (Nat.le_max_l _ _)). specialize (E2 (Nat.max n1 n2) (Nat.le_max_r _ _)).
  rewrite E1 in E2. inversion E2. reflexivity.
Qed.
Print Assumptions C04_expansion_deterministic.

(*    a search for !else that is not bounded by the matching !end does not have this property (the bound is
      what fixes/C04_2 puts into _find_matching_else) *)
Theorem C04_unbounded_else_refuted :
  expands sub_nat [] refuting_forest [1%nat; 2%nat]
  /\ resolve sub_nat [] false 100 (flatten refuting_forest) = RErr
  /\ resolve sub_nat [] true 100 (flatten refuting_forest) = ROk [1%nat; 2%nat].
Proof.
  split; [| split; vm_compute; reflexivity].
  apply (X_if sub_nat [] cd_true _ None _ true [1%nat] [2%nat]); [reflexivity | repeat constructor |].
  apply (X_if sub_nat [] cd_true _ (Some _) _ true [2%nat] []); [reflexivity | repeat constructor | constructor].
Qed.
Print Assumptions C04_unbounded_else_refuted.

(* 5. source variants.  (a) a source and the same source with every !for / !if expanded by hand give the
      same model;  (b) [variants_equal_styles] the model does not depend on {k} vs [k], ^ vs **, = vs :=,
      keyword spellings, <x> vs {{x}}, ?(c)|upper vs ?{c}.
      PARTIAL: comments, line continuations and white space are not represented in the model at all (they are
      removed by character-level regexes: glue); they are covered by the correspondence run only. *)
Theorem C04_variants_equal_unrolled_partial : forall cx (f : list (@node item)) items,
  expands subst_item cx f items ->
  exists n, forall fuel, (n <= fuel)%nat -> compile cx true fuel (flatten f) = compile cx true fuel (map DText items).
Proof.
  intros cx f items He. destruct (resolve_flatten subst_item cx _ _ He) as [n Hn].
  exists (Nat.max n (S (List.length items))). intros fuel Hf. unfold compile.
  rewrite Hn by lia. rewrite resolve_text by lia. reflexivity.
Qed.
Print Assumptions C04_variants_equal_unrolled_partial.

(*    (b) two sources with the same style erasure (erase_source forgets {k} vs [k], ^ vs **, = vs :=, the spelling of
      the keywords, <x> vs {{x}}, ?(c)|upper vs ?{c}) compile to the same model, for every context and fuel *)
Theorem C04_variants_equal_styles_partial : forall cx be fuel (s1 s2 : source),
  erase_source s1 = erase_source s2 -> compile cx be fuel s1 = compile cx be fuel s2.
Proof. intros cx be fuel s1 s2 H. rewrite <- (variants_equal_styles cx be fuel s1), H. apply variants_equal_styles. Qed.
Print Assumptions C04_variants_equal_styles_partial.

(* 6. the quantities of the model are exactly the declared ones, with their kinds and descriptions, plus one ant_
      quantity per transition shock and one std_ quantity per shock; log status follows the !log-variables lists *)
Theorem C04_quantities_exactly_declared : forall (decls : list decl) (d : decl),
  In d (all_decls decls) <->
     (In d decls /\ In (d_kind d) entry_order)
  \/ (exists s, In s decls /\ d_kind s = QTransitionShock /\
                d = mkDecl QAnticipatedShockValue (append ant_prefix (d_name s)) (append ant_descr_prefix (descr_or_name s)))
  \/ (exists s, In s decls /\ d_kind s = QTransitionShock /\
                d = mkDecl QTransitionStd (append std_prefix (d_name s)) (append std_descr_prefix (descr_or_name s)))
  \/ (exists s, In s decls /\ d_kind s = QMeasurementShock /\
                d = mkDecl QMeasurementStd (append std_prefix (d_name s)) (append std_descr_prefix (descr_or_name s))).
Proof.
  intros decls d.
  unfold all_decls. rewrite in_by_kind, !in_app_iff, !in_derived, in_by_kind by (simpl; tauto).
  split; [intros [H _]; exact H | intros H; split; [exact H | apply kind_tables]].
Qed.
Print Assumptions C04_quantities_exactly_declared.

(*    _populate_logly: a loggable variable is a log variable iff it is listed (without !all-but) or not listed
      (with !all-but); other kinds have no log status *)
Theorem C04_log_status : forall (allbut : bool) (logs : list string) (d : decl),
  logly_of allbut logs d =
    if mem_kind (d_kind d) [QTransitionVariable; QMeasurementVariable; QExogenousVariable]
    then Some (xorb allbut (mem_s (d_name d) logs)) else None.
Proof.
  intros allbut logs d.
  unfold logly_of. change loggable_kinds with [QTransitionVariable; QMeasurementVariable; QExogenousVariable].
  destruct (mem_kind _ _); [|reflexivity]. destruct (mem_s _ _), allbut; reflexivity.
Qed.
Print Assumptions C04_log_status.

(* 7. the compiled functions (makers.make_function, model/Makers.v; mk_cache, mk_func_str_parts, mk_prepare_steps,
      mk_adaptation_names, eq_... regenerated from makers.py, aldi/adaptations.py, equators/plain.py on every run).
      V: Python objects, F: function objects, exec_def: Python's exec of the text of a def in a globals dict (black box).
      In EVERY session of calls (any number of models, any order, any contexts) every call returns the function, the
      text and the globals that its own request (text, context) determines: nothing leaks from one compilation into
      another *)
Theorem C04_session_results : forall (V F : Type) (v_empty_dict : V) (v_adapt : string -> V) (v_fun : F -> V)
    (exec_def : string -> string -> dict V -> F) (reqs : list (request V)),
  run_session V F v_empty_dict v_adapt v_fun exec_def reqs = map (Makers.compile V F v_empty_dict v_adapt v_fun exec_def) reqs.
Proof. exact session_results. Qed.
Print Assumptions C04_session_results.

Theorem C04_session_history_irrelevant : forall (V F : Type) (v_empty_dict : V) (v_adapt : string -> V) (v_fun : F -> V)
    (exec_def : string -> string -> dict V -> F) (pre1 post1 pre2 post2 : list (request V)) (r : request V),
  nth_error (run_session V F v_empty_dict v_adapt v_fun exec_def (pre1 ++ r :: post1)) (List.length pre1)
    = Some (Makers.compile V F v_empty_dict v_adapt v_fun exec_def r) /\
  nth_error (run_session V F v_empty_dict v_adapt v_fun exec_def (pre2 ++ r :: post2)) (List.length pre2)
    = nth_error (run_session V F v_empty_dict v_adapt v_fun exec_def (pre1 ++ r :: post1)) (List.length pre1).
Proof.
  intros. rewrite !session_nth, !nth_error_app2 by lia. rewrite !PeanoNat.Nat.sub_diag. cbn. auto.
Qed.
Print Assumptions C04_session_history_irrelevant.

(*    the function of the k-th request is its text compiled in globals in which every name of ITS context (a user
      function) that is not a function adaptation is bound to the object that context binds it to *)
Theorem C04_session_function_context : forall (V F : Type) (v_empty_dict : V) (v_adapt : string -> V) (v_fun : F -> V)
    (exec_def : string -> string -> dict V -> F) (reqs : list (request V)) (k : nat) (r : request V) (n : string),
  nth_error reqs k = Some r ->
  NoDup (map fst (rq_ctx V r)) -> ~ In n mk_adaptation_names -> n <> "__builtins__"%string ->
  exists res, nth_error (run_session V F v_empty_dict v_adapt v_fun exec_def reqs) k = Some res
    /\ rs_func V F res = exec_def (func_str V r) (rq_name V r) (prepare_globals V v_empty_dict v_adapt (rq_ctx V r))
    /\ dict_get n (prepare_globals V v_empty_dict v_adapt (rq_ctx V r)) = dict_get n (rq_ctx V r).
Proof.
  intros V F v_empty_dict v_adapt v_fun exec_def reqs k r n Hk ND NA NB.
  exists (Makers.compile V F v_empty_dict v_adapt v_fun exec_def r). rewrite session_nth, Hk. cbn.
  repeat split. now apply globals_bind_context_names.
Qed.
Print Assumptions C04_session_function_context.

Theorem C04_globals_bind_adaptations : forall (V : Type) (v_empty_dict : V) (v_adapt : string -> V) (ctx : dict V) (n : string),
  In n mk_adaptation_names -> dict_get n (prepare_globals V v_empty_dict v_adapt ctx) = Some (v_adapt n).
Proof. intros. rewrite prepare_globals_shape. now apply dict_get_fold_set_in. Qed.
Print Assumptions C04_globals_bind_adaptations.

(*    any module-level table keyed by something that determines the compiled function is invisible ... *)
Theorem C04_keyed_session_independent : forall (V F : Type) (v_empty_dict : V) (v_adapt : string -> V) (v_fun : F -> V)
    (exec_def : string -> string -> dict V -> F) (key : request V -> string),
  (forall r1 r2, key r1 = key r2 -> Makers.compile V F v_empty_dict v_adapt v_fun exec_def r1
                                   = Makers.compile V F v_empty_dict v_adapt v_fun exec_def r2) ->
  forall reqs tb, table_sound V F v_empty_dict v_adapt v_fun exec_def key tb ->
  run_session_keyed V F v_empty_dict v_adapt v_fun exec_def (Some key) tb reqs
  = map (Makers.compile V F v_empty_dict v_adapt v_fun exec_def) reqs.
Proof.
  intros V F v_empty_dict v_adapt v_fun exec_def key Hkey; induction reqs as [|r rs IH]; intros tb Hs; cbn; [reflexivity|].
  destruct (dict_get (key r) tb) as [res|] eqn:E.
  - rewrite (Hs _ _ E r eq_refl). now rewrite IH.
  - rewrite IH; [reflexivity|].
    intros kk res Hg r' Hk.
    destruct (string_dec kk (key r)) as [->|N].
    + rewrite dict_get_set_same in Hg. inversion Hg; subst. now apply Hkey.
    + rewrite dict_get_set_other in Hg by assumption. eapply Hs; eauto.
Qed.
Print Assumptions C04_keyed_session_independent.

(*    ... and one keyed by the source text alone is not (seeded/C04_r3m2 is such a table): the second of two models with the
      same equations gets the user function of the first *)
Theorem C04_cache_by_source_refuted :
  map s_observe (s_run CacheBySource refuting_requests) <> map s_observe (s_run CacheNone refuting_requests)
  /\ (exists g, option_map (fun o => dict_get "f" (snd o)) (nth_error (map s_observe (s_run CacheBySource refuting_requests)) 1) = Some g
               /\ g = Some "<f one>"%string)
  /\ option_map (fun o => dict_get "f" (snd o)) (nth_error (map s_observe (s_run CacheNone refuting_requests)) 1)
     = Some (Some "<f two>"%string).
Proof.
  (* the observations differ because their second entries do *)
  refine ((fun H => conj (_ H) H) _).
  - intros [[g [H1 ->]] H2] E. rewrite E, H2 in H1. discriminate H1.
  - split; [eexists; split; [vm_compute; reflexivity | reflexivity] | vm_compute; reflexivity].
Qed.
Print Assumptions C04_cache_by_source_refuted.

(*    copies / unpickling (remake_function) and the equators of all the models of a session *)
Theorem C04_remake_is_make : forall (V F : Type) (v_empty_dict : V) (v_adapt : string -> V) (v_fun : F -> V)
    (exec_def : string -> string -> dict V -> F) (r : request V),
  remake_function V F v_empty_dict v_adapt exec_def (rq_name V r)
     (rs_str V F (Makers.compile V F v_empty_dict v_adapt v_fun exec_def r)) (rq_ctx V r)
  = rs_func V F (Makers.compile V F v_empty_dict v_adapt v_fun exec_def r).
Proof. reflexivity. Qed.
Print Assumptions C04_remake_is_make.

Theorem C04_equators_of_session : forall (V F : Type) (v_empty_dict : V) (v_adapt : string -> V) (v_fun : F -> V)
    (exec_def : string -> string -> dict V -> F) (models : list (list (list string) * dict V)),
  run_session V F v_empty_dict v_adapt v_fun exec_def (List.concat (map (model_requests V) models))
  = List.concat (map (fun m => map (fun xs => Makers.compile V F v_empty_dict v_adapt v_fun exec_def (equator_request V xs (snd m))) (fst m)) models).
Proof.
  intros. rewrite session_results, concat_map. f_equal. rewrite !map_map. apply map_ext.
  intros m. unfold model_requests. now rewrite map_map.
Qed.
Print Assumptions C04_equators_of_session.

Example C04_session_example :
  map (fun o => dict_get "f" (snd o)) (s_session (refuting_requests ++ [mkReq SV "g" ["a"] "f(a)" [("log", "<user log>"); ("f", "<f three>")]]))
  = [Some "<f one>"; Some "<f two>"; Some "<f three>"]%string
  /\ map (fun o => fst (fst o)) (s_session [mkReq SV "g" ["a"; "b"] "f(a)" []]) = ["def g(a, b): return f(a)"]%string
  /\ map (fun o => dict_get "log" (snd o)) (s_session [mkReq SV "g" ["a"] "f(a)" [("log", "<user log>")]]) = [Some "adapt:log"%string].
Proof. exact session_example. Qed.

(* non-vacuity: a lawful carrier exists; a source with a loop, a conditional inside an equation, a
   pseudofunction, a shock, a log list with !all-but compiles to the expected model *)
Example C04_lawful_carrier_exists : lawful QcC Qcanon.Qcinv.
Proof. exact QcC_lawful. Qed.

Example C04_example_compiles :
  exists m, compile [] true 100 example_source = COk m /\ List.length (m_dynamic m) = 2%nat
            /\ map q_name (m_quantities m) = ["y_a"; "y_b"; "e"; "ant_e"; "rho"; "std_e"]%string.
Proof. eexists. split; [exact example_compiles|]. split; reflexivity. Qed.
