(* C09  Periods behave as calendar-consistent integers and spans as their ranges.
   The lemmas are in proofs/DatesProofs.v: a theorem here is one of them, or is proved here from them.
   period = (frequency value, serial); every gen_* definition underneath (arithmetic bodies, comparison bodies, tables,
   keyword arms, Span mutators, range triple) is regenerated from dates.py on every run; the calendar is
   lib/Calendar.v (ordinal 1 = 0001-01-01, as CPython's datetime.date). *)
From Coq Require Import ZArith Bool String List Lia.
From Verif Require Import lib.Calendar lib.Period gen.DatesGen model.Dates proofs.DatesProofs.
Import ListNotations.
Open Scope Z_scope.

(* 1. p + (q - p) == q, (p + n) - p == n, associativity, p - n == p + (-n) *)
Theorem C09_add_sub_laws : forall p q n m,
  (p_freq p = p_freq q -> exists d, psub q p = Ok d /\ padd p d = q) /\
  psub (padd p n) p = Ok n /\
  padd (padd p n) m = padd p (n + m) /\
  padd p 0 = p /\
  psub_int p n = padd p (- n) /\
  psub_int (padd p n) n = p.
Proof. exact add_sub_laws. Qed.
Print Assumptions C09_add_sub_laws.

(* 2. within one frequency <= is a total order, < its strict part *)
Theorem C09_total_order : forall p q r, p_freq p = p_freq q -> p_freq q = p_freq r ->
  ple p p /\
  (ple p q -> ple q p -> p = q) /\
  (ple p q -> ple q r -> ple p r) /\
  (ple p q \/ ple q p) /\
  (plt p q <-> ple p q /\ p <> q) /\
  (plt p q \/ p = q \/ plt q p).
Proof. exact total_order. Qed.
Print Assumptions C09_total_order.

(* every comparison operator is the sign test of the difference p - q; the difference is 0 exactly for equal periods *)
Theorem C09_cmp_agrees_with_sub : forall p q, p_freq p = p_freq q ->
  exists d, psub p q = Ok d /\ (forall c, pcmp c p (Some q) = Ok (cmp_sem c d)) /\ (d = 0 <-> p = q).
Proof. exact cmp_agrees_with_sub. Qed.
Print Assumptions C09_cmp_agrees_with_sub.

(* equal periods hash equally (the hash is a function of hash_key), and the key determines the period *)
Theorem C09_eq_implies_same_hash_key : forall p q, pcmp CEq p (Some q) = Ok true -> hash_key p = hash_key q.
Proof. exact eq_implies_same_hash_key. Qed.
Print Assumptions C09_eq_implies_same_hash_key.

Theorem C09_hash_key_injective : forall p q, hash_key p = hash_key q -> p = q.
Proof.
  intros p q H. unfold hash_key, gen_hash_key in H. injection H as H1 H2. apply period_ext; assumption.
Qed.
Print Assumptions C09_hash_key_injective.

(* 3. mixing frequencies (or comparing with None) is rejected with IrisPieError, never silently compared *)
Theorem C09_mixed_frequency_rejected : forall p q step, p_freq p <> p_freq q ->
  psub p q = Err ErrFreq /\
  (forall c, pcmp c p (Some q) = Err ErrFreq) /\
  (forall c, pcmp c p None = Err ErrFreq) /\
  span_make (Some (At p)) (Some (At q)) step = Err ErrFreq /\
  periods_from_until p q step = Err ErrFreq /\
  (forall s t st2, sp_start s = At p -> sp_start t = At q -> sp_end s = At p -> sp_end t = At q ->
     sp_step t = st2 -> span_eq s t = Err ErrFreq).
Proof. exact mixed_frequency_rejected. Qed.
Print Assumptions C09_mixed_frequency_rejected.

Theorem C09_none_rejected : forall p c, pcmp c p None = Err ErrFreq.
Proof. exact none_rejected. Qed.
Print Assumptions C09_none_rejected.

(* 4. consecutive regular periods tile the calendar without gap or overlap: for every yearly / half-yearly /
      quarterly / monthly period of every year >= 1, start <= middle <= end are valid dates and the day after the end
      of p is the start of p + 1 *)
Theorem C09_tiling : forall f s, is_regular_freq f = true -> 1 <= s / f ->
  let p := mkP f s in
  exists a b c a',
    to_ymd PStart p = Ok a /\ to_ymd PMiddle p = Ok b /\ to_ymd PEnd p = Ok c /\
    to_ymd PStart (padd p 1) = Ok a' /\
    valid3 a /\ valid3 b /\ valid3 c /\ valid3 a' /\
    ord3 a <= ord3 b <= ord3 c /\ ord3 c + 1 = ord3 a'.
Proof. exact tiling. Qed.
Print Assumptions C09_tiling.

Theorem C09_tiling_daily : forall n, in_calendar n -> in_calendar (n + 1) ->
  exists a b, to_ordinal PEnd (mkP freq_DAILY n) = Ok a /\ to_ordinal PStart (padd (mkP freq_DAILY n) 1) = Ok b /\
              a + 1 = b.
Proof.
  intros n H1 H2. exists n, (n + 1).
  destruct (accessors_vs_calendar_daily n H1) as (_ & A & _).
  destruct (accessors_vs_calendar_daily (n + 1) H2) as (_ & B & _).
  split; [apply A |]. split; [| reflexivity]. unfold padd. cbn [p_freq p_serial]. unfold gen_period_add. apply B.
Qed.
Print Assumptions C09_tiling_daily.

(* 5. year / segment accessors agree with the calendar dates *)
Theorem C09_accessors_vs_calendar_regular : forall f s, is_regular_freq f = true ->
  let p := mkP f s in
  let y := s / f in
  let seg := s mod f + 1 in
  to_year_segment p = Ok (y, seg) /\ p_year p = Ok y /\ p_segment p = Ok seg /\
  1 <= seg <= f /\
  from_year_segment f y seg = Ok p /\
  p = padd (mkP f (gen_reg_from_year_segment f y 1)) (seg - 1) /\
  to_ymd PStart p = Ok (y, seg_start_month f seg, 1) /\
  to_ymd PEnd p = Ok (y, seg_end_month f seg, days_in_month y (seg_end_month f seg)) /\
  (seg = 1 -> to_ymd PStart p = Ok (y, 1, 1)) /\
  (seg = f -> to_ymd PEnd p = Ok (y, 12, 31)).
Proof. exact accessors_vs_calendar_regular. Qed.
Print Assumptions C09_accessors_vs_calendar_regular.

(* daily: the period IS the calendar day (every position), year = calendar year, segment = day of the year *)
Theorem C09_accessors_vs_calendar_daily : forall n, in_calendar n ->
  let p := mkP freq_DAILY n in
  (forall pos, to_ymd pos p = Ok (ymd_of_ord n)) /\
  (forall pos, to_ordinal pos p = Ok n) /\
  to_year_segment p = Ok (year_of_ord n, doy_of_ord n) /\
  p_year p = Ok (year_of_ord n) /\ p_segment p = Ok (doy_of_ord n) /\
  1 <= doy_of_ord n <= year_len (year_of_ord n) /\
  from_year_segment freq_DAILY (year_of_ord n) (doy_of_ord n) = Ok p /\
  (let '(y, m, d) := ymd_of_ord n in from_ymd freq_DAILY y m d = Ok p).
Proof. exact accessors_vs_calendar_daily. Qed.
Print Assumptions C09_accessors_vs_calendar_daily.

(* 6. keyword shifts land on the documented period *)
Theorem C09_shift_keywords_regular : forall f s, is_regular_freq f = true ->
  let p := mkP f s in
  let y := s / f in
  let seg := s mod f + 1 in
  pshift p (ByKw "yoy") = Ok (Some (padd p (- f))) /\
  pshift p (ByKw "soy") = Ok (Some (mkP f (y * f))) /\
  pshift p (ByKw "boy") = pshift p (ByKw "soy") /\
  to_year_segment (mkP f (y * f)) = Ok (y, 1) /\
  pshift p (ByKw "eopy") = Ok (Some (mkP f (y * f - 1))) /\
  to_year_segment (mkP f (y * f - 1)) = Ok (y - 1, f) /\
  pshift p (ByKw "tty") = Ok (if seg >? 1 then Some (padd p (-1)) else None) /\
  (forall k, pshift p (ByInt k) = Ok (Some (padd p k))).
Proof.
  intros f s R p y seg. subst p y seg. pose proof (regular_pos f R) as F.
  destruct (year_seg_of_serial f (s / f) 1 F ltac:(lia)) as (S1 & S2).
  destruct (year_seg_of_serial f (s / f - 1) f F ltac:(lia)) as (E1 & E2).
  replace (s / f * f + 1 - 1) with (s / f * f) in S1, S2 by ring.
  replace ((s / f - 1) * f + f - 1) with (s / f * f - 1) in E1, E2 by ring.
  unfold pshift. cbn [sassoc gen_shift_arms String.eqb Ascii.eqb Bool.eqb].
  unfold create_soy, create_eopy, create_tty, to_year_segment, gen_reg_to_year_segment. cbn [p_freq p_serial].
  rewrite (regular_kind f R), S1, S2, E1, E2. cbn [dmap option_map].
  refine (conj _ (conj _ (conj eq_refl (conj eq_refl (conj _ (conj eq_refl (conj _ (fun k => eq_refl)))))))).
  - reflexivity.
  - do 3 f_equal. unfold gen_reg_create_soy. ring.
  - do 3 f_equal. unfold gen_reg_create_eopy. ring.
  - f_equal. unfold gen_reg_create_tty. destruct (s mod f + 1 >? 1); reflexivity.
Qed.
Print Assumptions C09_shift_keywords_regular.

Theorem C09_shift_keywords_daily : forall n, in_calendar n ->
  let p := mkP freq_DAILY n in
  let y := year_of_ord n in
  pshift p (ByKw "yoy") = Ok (Some (padd p (- 365))) /\
  pshift p (ByKw "soy") = Ok (Some (mkP freq_DAILY (ord_of_ymd y 1 1))) /\
  pshift p (ByKw "boy") = pshift p (ByKw "soy") /\
  (2 <= y -> pshift p (ByKw "eopy") = Ok (Some (mkP freq_DAILY (ord_of_ymd (y - 1) 12 31))) /\
             ord_of_ymd (y - 1) 12 31 + 1 = ord_of_ymd y 1 1) /\
  pshift p (ByKw "tty") = Ok (if doy_of_ord n >? 1 then Some (padd p (-1)) else None).
Proof.
  intros n H p y. subst p. destruct (daily_create_spec n H) as (S & E & _ & T). fold y in S, E.
  unfold pshift. cbn [sassoc gen_shift_arms String.eqb Ascii.eqb Bool.eqb].
  unfold create_soy, create_eopy, create_tty. cbn [p_freq p_serial]. rewrite daily_kind, S, T.
  refine (conj eq_refl (conj eq_refl (conj eq_refl (conj _ _)))).
  - intros Y2. rewrite (E Y2). split; [reflexivity |].
    replace y with (y - 1 + 1) at 2 by lia. apply year_boundary.
  - cbn [of_opt dmap]. destruct (doy_of_ord n >? 1); reflexivity.
Qed.
Print Assumptions C09_shift_keywords_daily.

(* 7. a (resolved) Span enumerates exactly start, start+step, ... up to end in the direction of step; its length,
      iteration and indexing (also negative) agree with one another *)
Theorem C09_span_enumerates : forall s p q c,
  sp_needs s = false -> sp_start s = At p -> sp_end s = At q -> sp_step s = c -> c <> 0 ->
  let a := p_serial p in
  let e := p_serial q in
  let n := span_count a e c in
  span_len s = Ok n /\
  span_iter s = Ok (map (fun i => padd p (Z.of_nat i * c)) (seq 0 (Z.to_nat n))) /\
  (forall i, 0 <= i < n -> span_nth s i = Ok (padd p (i * c)) /\ span_nth s (i - n) = Ok (padd p (i * c))) /\
  (forall i, n <= i \/ i < - n -> span_nth s i = Err ErrIndex) /\
  (forall i, 0 <= i < n -> (0 < c -> a <= a + i * c <= e) /\ (c < 0 -> e <= a + i * c <= a)) /\
  (0 < c -> e < a + n * c) /\ (c < 0 -> a + n * c < e) /\
  (n = 0 <-> (0 < c /\ e < a) \/ (c < 0 /\ a < e)).
Proof. exact span_enumerates. Qed.
Print Assumptions C09_span_enumerates.

Theorem C09_span_slice_full : forall s p q c l,
  sp_needs s = false -> sp_start s = At p -> sp_end s = At q -> sp_step s = c -> c <> 0 ->
  span_iter s = Ok l -> span_slice s (None, None, None) = Ok l.
Proof.
  intros s p q c l Hn Hs He Hc Hnz L. unfold span_slice.
  rewrite (resolved_len_iter s p q c Hn Hs He Hc Hnz l L). cbn [bind slice_indices Z.eqb Z.ltb Z.compare].
  rewrite L. cbn [bind]. f_equal. apply select_idx_all. intros j J. apply in_py_range_unit. lia.
Qed.
Print Assumptions C09_span_slice_full.

Theorem C09_span_shift : forall s p q c k,
  sp_needs s = false -> sp_start s = At p -> sp_end s = At q -> sp_step s = c -> c <> 0 ->
  let s' := sstep s (OShift k) in
  span_len s' = span_len s /\
  (forall l, span_iter s = Ok l -> span_iter s' = Ok (map (fun x => padd x k) l)) /\
  (p_freq p = p_freq q -> span_add s k = Ok s').
Proof. exact span_shift. Qed.
Print Assumptions C09_span_shift.

Theorem C09_reverse_involutive : forall s, sstep (sstep s OReverse) OReverse = s.
Proof. exact reverse_involutive. Qed.
Print Assumptions C09_reverse_involutive.

(* the reversed span lists the same periods backwards when the step divides the distance; otherwise the reversed span
   still enumerates end, end-step, ... down to start (C09_span_enumerates applied to it) -- the property asks no more *)
Theorem C09_reverse_exact_when_divisible : forall s p q c l,
  sp_needs s = false -> sp_start s = At p -> sp_end s = At q -> sp_step s = c -> c <> 0 ->
  p_freq p = p_freq q ->
  (p_serial q - p_serial p) mod c = 0 -> span_iter s = Ok l ->
  span_iter (sstep s OReverse) = Ok (rev l).
Proof. exact reverse_exact_when_divisible. Qed.
Print Assumptions C09_reverse_exact_when_divisible.

(* 8. resolution against any context commutes with every in-place operation and every history *)
Theorem C09_resolve_then_ops_commute : forall c ops s,
  span_resolve c (run_ops s ops) = dmap (fun r => run_ops r ops) (span_resolve c s).
Proof.
  intros c ops. induction ops as [| o ops IH]; intros s; cbn [run_ops fold_left].
  - destruct (span_resolve c s); reflexivity.
  - fold (run_ops (sstep s o) ops). rewrite IH, resolve_then_ops_commute.
    destruct (span_resolve c s); reflexivity.
Qed.
Print Assumptions C09_resolve_then_ops_commute.

(* resolution never mixes frequencies.  span_make / span_resolve are assembled from the statement shapes regenerated
       from Span.__init__ / Span.resolve (gen_span_init_start/end/needs/checks_when_resolved, gen_span_resolve).
       For EVERY span (concrete, half-open, fully open; any offsets, step, flag) and EVERY context, resolve either rejects
       with IrisPieError -- exactly when the two resolved ends have different frequencies -- or returns a resolved span
       whose two ends are periods of one frequency *)
Theorem C09_resolve_rejects_or_single_frequency : forall c s,
  match span_resolve c s with
  | Err e => e = ErrFreq /\ ep_freq_in c (sp_start s) <> ep_freq_in c (sp_end s)
  | Ok r => sp_needs r = false /\ sp_step r = sp_step s /\
            sp_start r = ep_resolve c (sp_start s) /\ sp_end r = ep_resolve c (sp_end s) /\
            exists p q, sp_start r = At p /\ sp_end r = At q /\ p_freq p = p_freq q /\
                        p_freq p = ep_freq_in c (sp_start s) /\ p_freq q = ep_freq_in c (sp_end s)
  end.
Proof. exact resolve_rejects_or_single_frequency. Qed.
Print Assumptions C09_resolve_rejects_or_single_frequency.

Theorem C09_resolve_accepts_iff_one_frequency : forall c s,
  (ep_freq_in c (sp_start s) = ep_freq_in c (sp_end s) ->
     span_resolve c s = Ok (mkSpan (ep_resolve c (sp_start s)) (ep_resolve c (sp_end s)) (sp_step s) false)) /\
  (ep_freq_in c (sp_start s) <> ep_freq_in c (sp_end s) -> span_resolve c s = Err ErrFreq).
Proof.
  intros c s. rewrite span_resolve_unfold.
  destruct (ep_resolve_at c (sp_start s)) as (p & P). destruct (ep_resolve_at c (sp_end s)) as (q & Q).
  rewrite P, Q, span_make_at.
  rewrite <- (ep_resolve_freq _ _ _ P), <- (ep_resolve_freq _ _ _ Q). split; intros F.
  - apply check_some in F. rewrite F. reflexivity.
  - rewrite check_some_false by assumption. reflexivity.
Qed.
Print Assumptions C09_resolve_accepts_iff_one_frequency.

(* the call shapes: one fixed end of frequency F, the open side taken from a context date of another frequency; a fully
   open span against a context whose two dates differ in frequency *)
Theorem C09_resolve_half_open_mixed_rejected : forall c p (b : bool) o step needs,
  p_freq (if b then c_start c else c_end c) <> p_freq p ->
  span_resolve c (mkSpan (At p) (Ctx b o) step needs) = Err ErrFreq /\
  span_resolve c (mkSpan (Ctx b o) (At p) step needs) = Err ErrFreq.
Proof.
  intros c p b o step needs F.
  split; apply (proj2 (C09_resolve_accepts_iff_one_frequency c _)); cbn [sp_start sp_end ep_freq_in]; destruct b; congruence.
Qed.
Print Assumptions C09_resolve_half_open_mixed_rejected.

Theorem C09_resolve_open_mixed_context_rejected : forall c b o o' step needs,
  p_freq (c_start c) <> p_freq (c_end c) ->
  span_resolve c (mkSpan (Ctx b o) (Ctx (negb b) o') step needs) = Err ErrFreq.
Proof.
  intros c b o o' step needs F.
  apply (proj2 (C09_resolve_accepts_iff_one_frequency c _)); cbn [sp_start sp_end ep_freq_in]; destruct b; cbn [negb]; congruence.
Qed.
Print Assumptions C09_resolve_open_mixed_context_rejected.

Theorem C09_resolved_listing_one_frequency : forall c s r l,
  span_resolve c s = Ok r -> span_iter r = Ok l -> forall x, In x l -> p_freq x = ep_freq_in c (sp_start s) /\
                                                                       p_freq x = ep_freq_in c (sp_end s).
Proof.
  intros c s r l R L x X. pose proof (resolve_rejects_or_single_frequency c s) as H. rewrite R in H.
  destruct H as (_ & _ & _ & _ & p & q & Sp & Sq & F & FP & FQ).
  pose proof (span_iter_freq r p l x Sp L X). split; congruence.
Qed.
Print Assumptions C09_resolved_listing_one_frequency.

(* histories: after ANY sequence of public operations (in-place reverse/shift/shift_start/shift_end, + - >> << reversed()
   and resolve against contexts of ANY frequencies; a raising operation leaves the span unchanged) applied to a span the
   constructor accepted, a span that claims to be resolved has two period ends of one frequency and lists that frequency *)
Theorem C09_every_history_single_frequency : forall l a b c s, span_make a b c = Ok s ->
  let t := run_public s l in
  span_wf t /\
  (sp_needs t = false -> exists p q, sp_start t = At p /\ sp_end t = At q /\ p_freq p = p_freq q /\
                                    forall xs x, span_iter t = Ok xs -> In x xs -> p_freq x = p_freq p).
Proof. exact every_history_single_frequency. Qed.
Print Assumptions C09_every_history_single_frequency.

(* the constructor assembled from the regenerated fragments: defaults in the direction of the step, needs_resolve, check *)
Theorem C09_span_constructor_shape : forall a b step, span_make a b step =
  let s := match a with Some e => e | None => Ctx (step >? 0) 0 end in
  let e := match b with Some e => e | None => Ctx (negb (step >? 0)) 0 end in
  let needs := ep_needs s || ep_needs e in
  if needs then Ok (mkSpan s e step true)
  else match s, e with
       | At p, At q => if check_periods p (Some q) then Ok (mkSpan s e step false) else Err ErrFreq
       | _, _ => Err ErrFreq
       end.
Proof. exact span_make_unfold. Qed.
Print Assumptions C09_span_constructor_shape.

(* what the constructor establishes is preserved by every history of in-place mutations *)
Theorem C09_history_wellformed : forall ops a b c s, span_make a b c = Ok s -> span_wf (run_ops s ops).
Proof. intros. apply run_ops_wf. eapply span_make_wf. eassumption. Qed.
Print Assumptions C09_history_wellformed.

(* 9. after ANY sequence of reverse / shift / shift_start / shift_end the span equals the functional composition:
      the two original end points shifted by the accumulated amounts, swapped and the step negated iff the number of
      reversals is odd; its listing is the enumeration of that closed form *)
Theorem C09_history_invariant : forall ops s, run_ops s ops = closed_form s (summarize ops).
Proof. exact history_invariant. Qed.
Print Assumptions C09_history_invariant.

Theorem C09_history_enumerates : forall ops s p q c,
  let t := run_ops s ops in
  sp_needs t = false -> sp_start t = At p -> sp_end t = At q -> sp_step t = c -> c <> 0 ->
  t = closed_form s (summarize ops) /\
  span_iter t = Ok (map (fun i => padd p (Z.of_nat i * c)) (seq 0 (Z.to_nat (span_count (p_serial p) (p_serial q) c)))).
Proof.
  intros ops s p q c t Hn Hs He Hc Hnz. split; [apply history_invariant |].
  rewrite (resolved_eta t p q c Hn Hs He Hc). apply resolved_iter, Hnz.
Qed.
Print Assumptions C09_history_enumerates.

(* 10. the hand-written regular-frequency arithmetic of lib/Period.v (used by the Series / Temporal models of C10,
       C12, C13) agrees with the fragments generated from dates.py *)
Theorem C09_period_lib_agrees : forall f t y seg,
  ysf_serial y seg f = gen_serial_from_ysf y seg f /\
  ysf_serial y seg f = gen_reg_from_year_segment f y seg /\
  serial_year f t = gen_reg_year f t /\
  serial_seg f t = gen_reg_segment f t /\
  (serial_year f t, serial_seg f t) = gen_reg_to_year_segment f t /\
  p_soy f t = gen_reg_create_soy f t /\
  p_eopy f t = gen_reg_create_eopy f t /\
  p_tty f t = gen_reg_create_tty f t /\
  pshift (mkP f t) (ByKw "yoy") = Ok (Some (mkP f (p_yoy f t))).
Proof.
  intros f t y seg. unfold ysf_serial, gen_serial_from_ysf, gen_reg_from_year_segment, serial_year, gen_reg_year,
    serial_seg, gen_reg_segment, gen_reg_to_year_segment, p_soy, p_eopy, p_tty, p_yoy, gen_reg_create_soy,
    gen_reg_create_eopy, gen_reg_create_tty, ysf_serial, serial_year, serial_seg.
  refine (conj _ (conj _ (conj _ (conj _ (conj _ (conj _ (conj _ (conj _ _)))))))); try reflexivity; try lia.
  all: try (destruct (t mod f + 1 >? 1); [f_equal; lia | reflexivity]).
  all: try (unfold pshift; cbn [sassoc gen_shift_arms String.eqb Ascii.eqb Bool.eqb]; cbn [p_freq p_serial];
            f_equal; f_equal; f_equal; try (unfold gen_shift_arm_yoy; lia)).
Qed.
Print Assumptions C09_period_lib_agrees.

Theorem C09_period_shift_agrees : forall f b t, is_regular_freq f = true ->
  pshift (mkP f t) (shift_of b) = Ok (option_map (mkP f) (period_shift f b t)).
Proof.
  intros f b t R. destruct (C09_period_lib_agrees f t 0 0) as (_ & _ & _ & _ & _ & S & E & T & Y).
  destruct b; cbn [shift_of period_shift option_map].
  - reflexivity.
  - exact Y.
  - unfold pshift. cbn [sassoc gen_shift_arms String.eqb Ascii.eqb Bool.eqb]. unfold create_soy. cbn [p_freq p_serial].
    rewrite (regular_kind f R), S. reflexivity.
  - unfold pshift. cbn [sassoc gen_shift_arms String.eqb Ascii.eqb Bool.eqb]. unfold create_eopy. cbn [p_freq p_serial].
    rewrite (regular_kind f R), E. reflexivity.
  - unfold pshift. cbn [sassoc gen_shift_arms String.eqb Ascii.eqb Bool.eqb]. unfold create_tty. cbn [p_freq p_serial].
    rewrite (regular_kind f R), T. reflexivity.
Qed.
Print Assumptions C09_period_shift_agrees.

(* the calendar underneath: fromordinal / toordinal are mutually inverse on the supported range *)
Theorem C09_calendar_inverse : forall y m d n,
  (valid_ymd y m d -> ymd_of_ord (ord_of_ymd y m d) = (y, m, d)) /\
  (let '(y', m', d') := ymd_of_ord n in ord_of_ymd y' m' d' = n /\ 1 <= m' <= 12 /\ 1 <= d' <= days_in_month y' m'
                                          /\ y' = year_of_ord n).
Proof. intros. split; [apply ymd_of_ord_of_ymd | apply ord_of_ymd_of_ord]. Qed.
Print Assumptions C09_calendar_inverse.

(* 11. periods built from calendar dates (Period.from_ymd / from_python_date / from_iso_string / the second half of
       refrequent, every frequency): the period contains the date, its year is the date's year and its segment is the
       1-based index of the block of 12/f months that contains the date's month; month_to_segment is regenerated from
       the source for each class *)
Theorem C09_from_date_agrees_with_calendar : forall g y m d, is_regular_freq g = true -> valid_ymd y m d -> y <= MAXYEAR ->
  exists r, from_ymd g y m d = Ok r /\ p_freq r = g /\
            to_year_segment r = Ok (y, month_to_segment g m) /\
            1 <= month_to_segment g m <= g /\
            seg_start_month g (month_to_segment g m) <= m <= seg_end_month g (month_to_segment g m) /\
            month_to_segment g m = (m - 1) / (12 / g) + 1 /\
            to_ymd PStart r = Ok (y, seg_start_month g (month_to_segment g m), 1) /\
            to_ymd PEnd r = Ok (y, seg_end_month g (month_to_segment g m),
                                days_in_month y (seg_end_month g (month_to_segment g m))).
Proof.
  intros g y m d R (Y1 & M & D) Y.
  destruct (mts_spec g m R M) as (S & Sm). cbv zeta in S, Sm.
  destruct (year_seg_of_serial g y _ (regular_pos g R) S) as (Ey & Es).
  destruct (accessors_vs_calendar_regular g (y * g + month_to_segment g m - 1) R)
    as (A1 & _ & _ & _ & _ & _ & A7 & A8 & _).
  cbv zeta in A1, A7, A8. rewrite Ey, Es in A1, A7, A8.
  eexists. split; [apply from_ymd_regular; assumption |].
  exact (conj eq_refl (conj A1 (conj S (conj Sm (conj (mts_formula g m R M) (conj A7 A8)))))).
Qed.
Print Assumptions C09_from_date_agrees_with_calendar.

Theorem C09_from_date_contains : forall g y m d, cal_freq g -> valid_ymd y m d -> y <= MAXYEAR ->
  exists r a c, from_ymd g y m d = Ok r /\ p_freq r = g /\ in_domain r /\
                to_ymd PStart r = Ok a /\ to_ymd PEnd r = Ok c /\ valid3 a /\ valid3 c /\
                ord3 a <= ord_of_ymd y m d <= ord3 c.
Proof. exact from_ymd_contains. Qed.
Print Assumptions C09_from_date_contains.

Theorem C09_from_date_daily : forall y m d, valid_ymd y m d -> y <= MAXYEAR ->
  exists r, from_ymd freq_DAILY y m d = Ok r /\ (forall pos, to_ymd pos r = Ok (y, m, d)) /\
            to_year_segment r = Ok (y, days_before_month y m + d).
Proof.
  intros y m d V Y. destruct (accessors_vs_calendar_daily _ (ord_in_calendar y m d V Y)) as (A & _ & B & _).
  eexists. split; [apply from_ymd_daily; assumption |]. split.
  - intros pos. rewrite A, ymd_of_ord_of_ymd by assumption. reflexivity.
  - rewrite B, year_of_ord_of_ymd, doy_of_ord_ymd by assumption. reflexivity.
Qed.
Print Assumptions C09_from_date_daily.

(* the date of a period at ANY position builds the same period back *)
Theorem C09_date_roundtrip : forall p pos, in_domain p ->
  exists y m d, to_ymd pos p = Ok (y, m, d) /\ valid_ymd y m d /\ y <= MAXYEAR /\ from_ymd (p_freq p) y m d = Ok p.
Proof. exact domain_date. Qed.
Print Assumptions C09_date_roundtrip.

(* non-vacuity: the hypotheses above are met by concrete periods and spans (a quarterly span with step 3 and its
   reversal, a contextual span mutated, resolved against a monthly context and listed) *)
Example C09_hypotheses_satisfiable :
  is_regular_freq 4 = true /\ 1 <= 8081 / 4 /\ in_calendar 738000 /\ in_calendar (738000 + 1) /\
  (exists s, span_make (Some (At (mkP 4 8080))) (Some (At (mkP 4 8091))) 3 = Ok s /\ sp_needs s = false /\
             sp_step s <> 0 /\ span_iter s = Ok [mkP 4 8080; mkP 4 8083; mkP 4 8086; mkP 4 8089] /\
             span_iter (sstep s OReverse) = Ok [mkP 4 8091; mkP 4 8088; mkP 4 8085; mkP 4 8082]) /\
  (exists s r, span_make None (Some (Ctx false (-1))) 1 = Ok s /\ sp_needs s = true /\
               span_resolve (mkCtx (mkP 12 24240) (mkP 12 24250)) (run_ops s [OShift 2; OReverse; OShiftEnd 1]) = Ok r /\
               span_iter r = Ok [mkP 12 24251; mkP 12 24250; mkP 12 24249; mkP 12 24248; mkP 12 24247; mkP 12 24246;
                                 mkP 12 24245; mkP 12 24244; mkP 12 24243]).
Proof. exact hypotheses_satisfiable. Qed.

(* non-vacuity of the resolution theorems: quarterly start + open end against a monthly context is rejected, against a
   quarterly context it lists quarters; a fully open backward span against a mixed context is rejected; a history with a
   rejected and an accepted resolution *)
Example C09_resolve_examples :
  (exists s, span_make (Some (At (mkP 4 8080))) None 1 = Ok s /\ sp_needs s = true /\
     span_resolve (mkCtx (mkP 12 24240) (mkP 12 24246)) s = Err ErrFreq /\
     (exists r, span_resolve (mkCtx (mkP 4 8078) (mkP 4 8083)) s = Ok r /\
                span_iter r = Ok [mkP 4 8080; mkP 4 8081; mkP 4 8082; mkP 4 8083]) /\
     (exists r, run_public s [PMut (OShiftEnd (-1)); PResolve (mkCtx (mkP 12 24240) (mkP 12 24246)); PMut OReverse;
                              PResolve (mkCtx (mkP 4 8078) (mkP 4 8083))] = r /\
                span_iter r = Ok [mkP 4 8082; mkP 4 8081; mkP 4 8080])) /\
  (exists s, span_make None None (-2) = Ok s /\
     span_resolve (mkCtx (mkP 4 8078) (mkP 12 24246)) s = Err ErrFreq /\
     exists r, span_resolve (mkCtx (mkP 12 24240) (mkP 12 24246)) s = Ok r /\
               span_iter r = Ok [mkP 12 24246; mkP 12 24244; mkP 12 24242; mkP 12 24240]).
Proof. exact resolve_examples. Qed.
