(* C03  Kalman filter, smoother and likelihood equal exact Gaussian conditioning.
   The step and run lemmas used here are in proofs/KalmanProofs.v, the batch ones in proofs/BatchProofs.v,
   the matrix facts in lib/MatLemmas.v.

   "Gaussian conditioning" is defined algebraically (lib/MatLemmas.v): for (x, y) with means
   (mu_x, mu_y) and covariance [[Sxx, Sxy], [Sxy', Syy]],
       cond_mean mu_x mu_y Sxy Syy y = mu_x + Sxy Syy^-1 (y - mu_y)
       cond_cov  Sxx Sxy Syy         = Sxx - Sxy Syy^-1 Sxy'
       nll_gauss log log2pi mu S y   = 1/2 (k log2pi + log (det S) + (y - mu)' S^-1 (y - mu))
   The scalar logarithm `flog` and the constant `flog2pi` are Section variables; the only property
   of the logarithm that is used is flog (a b) = flog a + flog b for non-zero a, b.

   The statements are about model/Kalman.v (kf_step, kf_run, likelihood, contributions) on MathComp
   matrices over an arbitrary real field; the same model text, on rationals, is run against irispie's
   kalman_filter by harness/C03.py.  The smoother identities are under C08.
   Not proved (see MANIFEST / report): that the SMOOTHED moments equal the batch conditional moments
   given ALL observations, and the batch characterisation of the predicted/updated shock estimates
   (both are checked numerically by the falsifier on every run). *)
From mathcomp Require Import all_ssreflect all_algebra.
From Verif.lib Require Import MatOps MatMC MatLemmas.
From Verif.model Require Import Kalman.
From Verif.proofs Require Import KalmanProofs BatchProofs.
Set Implicit Arguments.
Unset Strict Implicit.
Import GRing.Theory.
Local Open Scope ring_scope.

Section C03.
Variable F : realFieldType.
Variables (flog : F -> F) (flog2pi : F).
Notation M := (MC flog flog2pi).
Variables n nw : nat.
Notation krun := (@kf_run M n nw).
Notation kstep := (@kf_step M n nw).

(* 0. kf_step (the literal transcription of the loop body of predict, with symmetrize, the
      empty-observation branch and the P-is-None branch) computes, for every symmetric Q and
      symmetric shock covariances, exactly the textbook quantities listed in step_spec *)
Theorem C03_step_meets_spec (a : 'cV[F]_n) (Q : 'M[F]_n) (p : period M n nw) :
  is_sym Q -> ok_period p -> step_spec a Q (kstep a Q p).
Proof. exact: kf_step_spec. Qed.

(* 1. one step = Gaussian conditioning: the prediction (a0, Q0) is the push-forward of (a, Q) through
      the transition equation, (y0, F, Q0 Z') are the joint moments of (alpha_t, y_t), and the update
      (a1, Q1) is the conditional mean / covariance of alpha_t given y_t -- in every period of every run *)
Theorem C03_step_is_conditioning (a : 'cV[F]_n) (Q : 'M[F]_n) (ps : seq (period M n nw)) :
  is_sym Q -> all_ok ps -> cond_chain a Q (krun a Q ps).
Proof.
apply: krun_ind => // {a Q ps} a Q p f fs _ _ sp IH; split=> //.
have [E0 EQ [Ey EF] E1 EQ1] := step_is_conditioning sp.
by split=> //=; rewrite -?Ey -?EF.
Qed.

(* 2. tower law: conditioning on y1 and then on y2 (with the conditional moments of (x, y2) given y1)
      equals conditioning on the stacked vector (y1, y2): mean, covariance, and
      nll(y1, y2) = nll(y1) + nll(y2 | y1) *)
Theorem C03_tower_mean nx n1 n2 (mu_x : 'cV[F]_nx) (m1 y1 : 'cV[F]_n1) (m2 y2 : 'cV[F]_n2)
    (Sx1 : 'M[F]_(nx, n1)) (Sx2 : 'M[F]_(nx, n2)) (S11 : 'M[F]_n1) (S12 : 'M[F]_(n1, n2)) (S22 : 'M[F]_n2) :
  S11 \in unitmx -> cond_cov S22 S12^T S11 \in unitmx ->
  cond_mean (cond_mean mu_x m1 Sx1 S11 y1) (cond_mean m2 m1 S12^T S11 y1)
            (cond_cross Sx2 Sx1 S11 S12^T) (cond_cov S22 S12^T S11) y2
  = cond_mean mu_x (col_mx m1 m2) (row_mx Sx1 Sx2) (block_mx S11 S12 S12^T S22) (col_mx y1 y2).
Proof. exact: tower_mean. Qed.

Theorem C03_tower_cov nx n1 n2 (Sxx : 'M[F]_nx)
    (Sx1 : 'M[F]_(nx, n1)) (Sx2 : 'M[F]_(nx, n2)) (S11 : 'M[F]_n1) (S12 : 'M[F]_(n1, n2)) (S22 : 'M[F]_n2) :
  S11 \in unitmx -> cond_cov S22 S12^T S11 \in unitmx -> is_sym S11 ->
  cond_cov (cond_cov Sxx Sx1 S11) (cond_cross Sx2 Sx1 S11 S12^T) (cond_cov S22 S12^T S11)
  = cond_cov Sxx (row_mx Sx1 Sx2) (block_mx S11 S12 S12^T S22).
Proof. exact: tower_cov. Qed.

Theorem C03_tower_nll n1 n2 (m1 y1 : 'cV[F]_n1) (m2 y2 : 'cV[F]_n2)
    (S11 : 'M[F]_n1) (S12 : 'M[F]_(n1, n2)) (S22 : 'M[F]_n2) :
  (forall a b, a != 0 -> b != 0 -> flog (a * b) = flog a + flog b) ->
  is_sym S11 -> S11 \in unitmx -> cond_cov S22 S12^T S11 \in unitmx ->
  nll_gauss flog flog2pi (col_mx m1 m2) (block_mx S11 S12 S12^T S22) (col_mx y1 y2)
  = nll_gauss flog flog2pi m1 S11 y1
    + nll_gauss flog flog2pi (cond_mean m2 m1 S12^T S11 y1) (cond_cov S22 S12^T S11) y2.
Proof. exact: tower_nll. Qed.

(* the block inverse and determinant behind it *)
Theorem C03_schur n1 n2 (A : 'M[F]_n1) (B : 'M[F]_(n1, n2)) (C : 'M[F]_(n2, n1)) (D : 'M[F]_n2) :
  A \in unitmx -> D - C *m invmx A *m B \in unitmx ->
  invmx (block_mx A B C D) = schur_inverse A B C D
  /\ \det (block_mx A B C D) = \det A * \det (D - C *m invmx A *m B).
Proof. by move=> uA uS; split; [exact: schur_inv | exact: schur_det]. Qed.

Section Likelihood.
Hypothesis flogM : forall x y : F, x != 0 -> y != 0 -> flog (x * y) = flog x + flog y.

(* 3. the likelihood is the prediction-error decomposition: every contribution is the negative log
      density of that period's observations under N(y0_t, F_t), and the total is their sum *)
Theorem C03_likelihood_is_prediction_error_decomposition (a : 'cV[F]_n) (Q : 'M[F]_n) (ps : seq (period M n nw)) :
  is_sym Q -> all_ok ps -> all_unit (krun a Q ps) ->
  l_nll (likelihood false (krun a Q ps))
  = \sum_(x <- krun a Q ps) nll_gauss flog flog2pi (f_y0 (ff x)) (f_F (ff x)) (p_y (fp x)).
Proof.
move=> sQ ok uF; rewrite (nll_is_sum flogM).
move: uF (krun_chain a sQ ok); move: (krun a Q ps) => fs {sQ ok}.
elim: fs a Q => [|[p f] fs IH] a Q /=; first by rewrite !big_nil.
by case=> uF uFs [sp ch]; rewrite !big_cons (IH _ _ uFs ch) (contribution_is_nll flogM sp uF).
Qed.

(* 4. the per-period contributions sum to the total, with and without variance rescaling, for every
      list of period records (model of the code as repaired by fixes/C03_1.patch; the unrepaired code
      leaves the contributions unscaled when rescale_variance=True and the check reports it) *)
Theorem C03_contributions_sum (b : bool) (fs : seq (fper M n nw)) :
  sum_lg M (contributions (l_var_scale (likelihood b fs)) fs) = l_nll (likelihood b fs).
Proof. exact: contributions_sum. Qed.

Theorem C03_likelihood_closed_form (fs : seq (fper M n nw)) :
  l_nll (likelihood false fs) = 2%:R^-1 * ((N_of fs)%:R * flog2pi + LD_of fs + QF_of fs).
Proof. exact: likelihood_closed_form. Qed.

(* 5. periods without observations contribute nothing and leave the state as predicted *)
Theorem C03_empty_period_contributes_zero (a : 'cV[F]_n) (Q : 'M[F]_n) (p : period M n nw) (f : frec p) :
  step_spec a Q f -> p_ny p = 0%N ->
  [/\ forall vs, contribution vs (mkFper p f) = 0, qf (mkFper p f) = 0, ld (mkFper p f) = 0,
      f_a1 f = f_a0 f & f_Q1 f = f_Q0 f].
Proof.
move=> sp E; split; [by move=> vs; rewrite /contribution /num_obs E | exact: qf_empty | exact: (ld_empty flogM) | | ].
- by rewrite (sp_a1 sp) mulmx_dim0 // addr0.
- by rewrite (sp_Q1 sp) (mulmx_dim0 _ _ E) mul0mx subr0.
Qed.

(* 6. rescale_variance = True: var_scale = sum pe' F^-1 pe / sum n_t and the reported likelihood is the one
      concentrated with respect to a common variance factor *)
Theorem C03_rescale_variance_law (fs : seq (fper M n nw)) :
  N_of fs != 0%N -> QF_of fs != 0 ->
  let vs := QF_of fs / (N_of fs)%:R in
  l_var_scale (likelihood true fs) = vs /\
  l_nll (likelihood true fs)
    = 2%:R^-1 * ((N_of fs)%:R * flog2pi + (LD_of fs + (N_of fs)%:R * flog vs) + (N_of fs)%:R).
Proof.
move=> Nnz Qnz vs; have [-> ->] := nll_true Nnz; split=> //.
have Nr : (N_of fs)%:R != 0 :> F by rewrite Num.Theory.pnatr_eq0.
by rewrite -/vs /vs invf_div mulrCA mulfV // mulr1.
Qed.

Theorem C03_rescale_variance_no_observations (fs : seq (fper M n nw)) :
  N_of fs = 0%N ->
  l_var_scale (likelihood true fs) = 1 /\ l_nll (likelihood true fs) = 2%:R^-1 * LD_of fs.
Proof. exact: rescaled_likelihood_no_obs. Qed.

(* 6'. ... and that concentrated likelihood is the plain likelihood of the same model with every covariance
       (initial MSE, transition and measurement shock covariances) multiplied by var_scale; the two runs have
       the same means, gains and prediction errors and every MSE of the rescaled run is var_scale times the
       original one (scaled_runs), which is what rescale_stds applies to the reported standard deviations *)
Theorem C03_rescale_is_scaled_model (a : 'cV[F]_n) (Q : 'M[F]_n) (ps : seq (period M n nw)) :
  is_sym Q -> all_ok ps -> all_unit (krun a Q ps) ->
  let fs := krun a Q ps in
  N_of fs != 0%N -> QF_of fs != 0 ->
  let vs := l_var_scale (likelihood true fs) in
  let fs' := krun a (vs *: Q) [seq scale_period vs p | p <- ps] in
  scaled_runs vs fs fs' /\ l_nll (likelihood true fs) = l_nll (likelihood false fs').
Proof.
move=> sQ ok uF fs Nnz Qnz vs fs'.
have [Evs Enll] := nll_true Nnz.
have vs0 : vs != 0 by rewrite /vs Evs mulf_neq0 // invr_eq0 Num.Theory.pnatr_eq0.
have sr : scaled_runs vs fs fs' by apply: krun_scaled.
split=> //.
have [E1 E2 E3] := scaled_sums flogM vs0 (krun_chain a sQ ok) uF sr.
by rewrite likelihood_closed_form E1 E2 E3 Enll -Evs.
Qed.

(* 7. the filter equals batch conditioning (induction over the periods from 1-2): the joint Gaussian law
      of (alpha_t, Y_t), Y_t = the stacked observations of periods 1..t, is built by push-forward through
      the transition equation (jpredict) and augmentation by the new observation (jobserve); after ANY
      number of periods the filter's updated mean and MSE are the conditional mean and covariance of
      alpha_t given Y_t (`filtered`), and the reported likelihood is the negative log density of Y_t *)
Theorem C03_filter_is_batch (a : 'cV[F]_n) (Q : 'M[F]_n) (ps : seq (period M n nw)) :
  is_sym Q -> all_ok ps -> all_unit (krun a Q ps) ->
  let j := tagged (jrun (j0 a Q) ps) in
  filtered j (last_state a Q (krun a Q ps)).1 (last_state a Q (krun a Q ps)).2
  /\ l_nll (likelihood false (krun a Q ps)) = nll_gauss flog flog2pi (j_mY j) (j_CYY j) (j_Y j).
Proof. exact: filter_is_batch. Qed.

(* 7'. ... and so are the predicted moments: if (a, Q) is the conditional law of the state given the data
       so far, the prediction (a0, Q0) of the next period is the conditional law of the next state given the
       same data (push-forward of the joint law through the transition equation) *)
Theorem C03_prediction_is_batch N (j : joint F n N) (a : 'cV[F]_n) (Q : 'M[F]_n) (p : period M n nw) (f : frec p) :
  filtered j a Q -> step_spec a Q f ->
  let j' := jpredict p j in
  f_a0 f = cond_mean (j_ma j') (j_mY j') (j_CaY j') (j_CYY j') (j_Y j')
  /\ f_Q0 f = cond_cov (j_Caa j') (j_CaY j') (j_CYY j').
Proof. by move=> fj sp; split; [exact: (pred_mean fj sp) | exact: (pred_cov fj sp)]. Qed.

End Likelihood.

(* non-vacuity: a concrete one-dimensional system with two observed periods (T = P = Z = H = 1, unit
   variances, any data y1 y2, over any real field) meets every hypothesis used above *)
Example C03_hypotheses_satisfiable (y1 y2 : F) :
  let ps := [:: ex_period flog flog2pi y1; ex_period flog flog2pi y2] in
  let Q : 'M[F]_1 := 1%:M in
  [/\ is_sym Q, all_ok ps & all_unit (@kf_run M 1 1 0 Q ps)].
Proof. exact: ex_hypotheses. Qed.

End C03.

Print Assumptions C03_step_meets_spec.
Print Assumptions C03_step_is_conditioning.
Print Assumptions C03_tower_mean.
Print Assumptions C03_tower_cov.
Print Assumptions C03_tower_nll.
Print Assumptions C03_schur.
Print Assumptions C03_likelihood_is_prediction_error_decomposition.
Print Assumptions C03_contributions_sum.
Print Assumptions C03_likelihood_closed_form.
Print Assumptions C03_empty_period_contributes_zero.
Print Assumptions C03_rescale_variance_law.
Print Assumptions C03_rescale_variance_no_observations.
Print Assumptions C03_rescale_is_scaled_model.
Print Assumptions C03_filter_is_batch.
Print Assumptions C03_prediction_is_batch.

(* The model object as a state machine (model/KalmanSession.v; proofs/KalmanSessionProofs.v).
   A model is a list of variants (values, solution with its two memo lists of expansion matrices); operations
   assign / solve / alter_num_variants / kalman_filter (both modes) / simulate.  `arun` is the specification
   machine: it stores no solution and no cache, and answers a call with a function of the variant's current
   values, the values it was last solved for, the mode and the variant's data column only.  The black boxes
   (assign1, solve1, devsol, expand, kf, sim) are arbitrary functions. *)
From Verif.model Require KalmanSession.
From Verif.proofs Require KalmanSessionProofs.

(* history independence: for every operation history and every pair of related initial states, everything the
   session returns equals what the specification machine returns, and the final states are related again *)
Theorem C03_session_history_independence (P X S E D O : Type) (assign1 : X -> P -> P) (solve1 : P -> S) (devsol : S -> S)
    (expand : bool -> S -> nat -> E) (fwd_of : D -> option nat) (kf sim : S -> P -> list E -> D -> O)
    (ops : list (KalmanSession.op X D)) (vs : list (KalmanSession.variant P S E)) (avs : list (KalmanSession.avariant P)) :
  List.Forall2 (KalmanSession.rel P S E solve1 expand) vs avs ->
  fst (KalmanSession.run P X S E D O assign1 solve1 devsol expand fwd_of kf sim ops vs) = fst (KalmanSession.arun P X S E D O assign1 solve1 devsol expand fwd_of kf sim ops avs) /\
  match snd (KalmanSession.run P X S E D O assign1 solve1 devsol expand fwd_of kf sim ops vs), snd (KalmanSession.arun P X S E D O assign1 solve1 devsol expand fwd_of kf sim ops avs) with
  | Some r, Some r' => List.Forall2 (KalmanSession.rel P S E solve1 expand) r r'
  | None, None => True
  | _, _ => False
  end.
Proof. exact (KalmanSessionProofs.session_refines P X S E D O assign1 solve1 devsol expand fwd_of kf sim ops vs avs). Qed.

(* in every state reachable from a freshly built model, a variant that is solved for its current values p answers
   a filter / simulate call (b) in either mode exactly as a freshly built and solved single-variant model with
   values p does on that variant's data column *)
Theorem C03_reachable_solved_is_fresh (P X S E D O : Type) (assign1 : X -> P -> P) (solve1 : P -> S) (devsol : S -> S)
    (expand : bool -> S -> nat -> E) (fwd_of : D -> option nat) (kf sim : S -> P -> list E -> D -> O)
    (ops : list (KalmanSession.op X D)) (p0 : P) (b dev : bool) (vs : list (KalmanSession.variant P S E))
    (avs : list (KalmanSession.avariant P)) (ds : list D) (dd : D) (k : nat) (p : P) :
  snd (KalmanSession.run P X S E D O assign1 solve1 devsol expand fwd_of kf sim ops (KalmanSession.fresh P S E solve1 p0)) = Some vs ->
  snd (KalmanSession.arun P X S E D O assign1 solve1 devsol expand fwd_of kf sim ops (cons (KalmanSession.mkAv P p0 (Some p0)) nil)) = Some avs ->
  lt k (length vs) ->
  List.nth k avs (KalmanSession.mkAv P p None) = KalmanSession.mkAv P p (Some p) ->
  List.nth k (List.map snd (KalmanSession.call_model P S E D O devsol expand fwd_of kf sim b dev vs ds dd)) None
  = List.nth 0%nat (List.map snd (KalmanSession.call_model P S E D O devsol expand fwd_of kf sim b dev (KalmanSession.fresh P S E solve1 p)
                                 (cons (KalmanSession.etl ds dd k) nil) dd)) None.
Proof.
  intros Hr Ha Hk Hs.
  destruct (KalmanSessionProofs.session_refines P X S E D O assign1 solve1 devsol expand fwd_of kf sim ops _ _
              (KalmanSessionProofs.fresh_rel P S E solve1 expand p0)) as [_ H].
  rewrite Hr Ha in H. eapply KalmanSessionProofs.solved_is_fresh; eassumption.
Qed.

Print Assumptions C03_session_history_independence.
Print Assumptions C03_reachable_solved_is_fresh.

(* The measurement block of the solution (fords/solutions.py: _solve_measurement_equations, generated from the
   source into gen/MeasBlockGen.v by translator/measblock.py).  For every dimension and every invertible Jacobian F0 of
   the measurement equations w.r.t. the measurement variables (not assumed diagonal or symmetric), the (Z, H, D) the code
   computes make the observation equation  y = Z xi + D + H w  used by the filter EQUIVALENT to the model's linearised
   measurement equations  F0 y + G0 xi + Hc + J0 w = 0. *)
From Verif.gen Require MeasBlockGen.
From Verif.proofs Require MeasBlockProofs.
Theorem C03_measurement_block_solves (K : fieldType) (flog0 : K -> K) (flog2pi0 : K) (ny nxi nw0 na : nat)
    (F0 : 'M[K]_ny) (G0 : 'M[K]_(ny, nxi)) (J0 : 'M[K]_(ny, nw0)) (Hc : 'cV[K]_ny) (Ua : 'M[K]_(nxi, na)) :
  F0 \in unitmx ->
  forall (y : 'cV[K]_ny) (xi : 'cV[K]_nxi) (w : 'cV[K]_nw0),
    (F0 *m y + G0 *m xi + Hc + J0 *m w = 0) <->
    (y = @MeasBlockGen.meas_Z (MC flog0 flog2pi0) ny nxi nw0 na F0 G0 J0 Hc Ua *m xi
         + @MeasBlockGen.meas_D (MC flog0 flog2pi0) ny nxi nw0 na F0 G0 J0 Hc Ua
         + @MeasBlockGen.meas_H (MC flog0 flog2pi0) ny nxi nw0 na F0 G0 J0 Hc Ua *m w).
Proof. exact (@MeasBlockProofs.meas_block_solves K flog0 flog2pi0 ny nxi nw0 na F0 G0 J0 Hc Ua). Qed.

Print Assumptions C03_measurement_block_solves.
