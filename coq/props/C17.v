(* C17  Sequential-model simulation makes every equation hold, also when exogenized.
   The lemmas behind the proofs are in proofs/SequentialProofs.v (transforms, cells, the fold, the two orders) and
   proofs/SeqSlateProofs.v (the initial array and the public entry point).
   The formulas lhs_level_*, lhs_of_level_*, plan_implied_*, rhs_with_residual, residual_body and the write
   sequences simulate_gen / exogenize_gen come from gen/TransformsGen.v, regenerated on every run from
   explanatories/_transforms.py, explanatories/main.py and plans/transforms.py.
   [m] is an arbitrary classification of real values as "missing" (it only decides the when_data fallback). *)
From Coq Require Import ZArith List Bool Lia Reals.
From Coq Require FunctionalExtensionality.
From Verif Require Import gen.SeqSlatableGen model.Sequential model.SeqSlate
                          proofs.SequentialProofs proofs.SeqSlateProofs.
Import ListNotations.
Notation RA := RArithM.

(* 1. each LHS level formula (f-string of create_eval_level_str) inverts the LHS expression (read back from
      _LHS_PATTERN): none, log, diff unconditionally; diff_log for a positive reference value; roc, pct for a
      non-zero one *)
Theorem C17_lhs_transform_inverse : forall m tr (rhs lag : R),
  lhs_dom tr lag -> lhs_of_level (RA m) tr (lhs_level (RA m) tr rhs lag) lag = rhs.
Proof. exact lhs_transform_inverse. Qed.
Print Assumptions C17_lhs_transform_inverse.

(* ... and they are the six documented transforms, with the lag one period back *)
Theorem C17_lhs_formulas : forall m (x rhs lag : R), lag <> 0%R ->
  (lhs_level (RA m) TNone rhs lag = rhs /\ lhs_level (RA m) TLog rhs lag = Rtrigo_def.exp rhs /\
   lhs_level (RA m) TDiff rhs lag = (lag + rhs)%R /\ lhs_level (RA m) TDiffLog rhs lag = (lag * Rtrigo_def.exp rhs)%R /\
   lhs_level (RA m) TRoc rhs lag = (lag * rhs)%R /\ lhs_level (RA m) TPct rhs lag = (lag * (1 + rhs / 100))%R) /\
  (lhs_of_level (RA m) TNone x lag = x /\ lhs_of_level (RA m) TLog x lag = Rpower.ln x /\
   lhs_of_level (RA m) TDiff x lag = (x - lag)%R /\ lhs_of_level (RA m) TDiffLog x lag = (Rpower.ln x - Rpower.ln lag)%R /\
   lhs_of_level (RA m) TRoc x lag = (x / lag)%R /\ lhs_of_level (RA m) TPct x lag = (100 * (x / lag - 1))%R) /\
  (forall tr, lhs_level_shift tr = lhs_of_level_shift tr) /\
  (forall tr, uses_lag tr = true -> lhs_of_level_shift tr = (-1)%Z).
Proof.
  intros m x rhs lag H. split; [repeat split |]. split; [repeat split; gen_unfold; field; exact H |].
  split; [exact lhs_shifts_agree | exact lag_is_previous_period].
Qed.
Print Assumptions C17_lhs_formulas.

(* 2. the level implied by a plan transform has the requested transformed value (flat: zero change) *)
Theorem C17_plan_transform_implied : forall m k (exo lag : R),
  plan_dom k lag -> plan_of_level m k (plan_implied (RA m) k exo lag) lag = plan_target k exo.
Proof. exact plan_transform_implied. Qed.
Print Assumptions C17_plan_transform_implied.

(* 3. one cell.  After Explanatory.simulate the equation transform(lhs) = rhs + residual holds there ... *)
Theorem C17_cell_after_simulate : forall m (e : eqn (RA m)) t (d : data (RA m)),
  wf_eqn m e -> ~ In (e_lhs e, t) (cells_of m (e_rhs e) t) ->
  lhs_dom (e_tr e) (d (e_lhs e) (t + lhs_level_shift (e_tr e))%Z) ->
  holds m e t (simulate_cell (RA m) e t d).
Proof. exact cell_after_simulate. Qed.
Print Assumptions C17_cell_after_simulate.

(* ... and after Explanatory.exogenize the LHS carries the implied value v and the residual written is exactly the
   one that keeps the equation true -- for EVERY input residual d r t (no guard); it fails without
   fixes/C17_1.patch. *)
Theorem C17_cell_after_exogenize : forall m (e : eqn (RA m)) t (v : R) (d : data (RA m)) r,
  e_res e = Some r -> r <> e_lhs e -> ~ In (r, t) (cells_of m (e_rhs e) t) ->
  exogenize_cell (RA m) e t v d (e_lhs e) t = v /\ holds m e t (exogenize_cell (RA m) e t v d).
Proof. exact cell_after_exogenize. Qed.
Print Assumptions C17_cell_after_exogenize.

(* 4. the loop, for ANY list of (period, equation) steps: if no later step writes a cell that an earlier step
      depends on (every value is computed before it is read), then at the end every equation holds in every
      executed period -- identities included, exogenized or not *)
Theorem C17_fold_invariant : forall m pl (steps : list (Z * eqn (RA m))) (d0 : data (RA m)),
  rbw m pl steps -> (forall s, In s steps -> step_ok m s) ->
  (forall s, In s steps -> dom_ok m pl s (run (RA m) pl steps d0)) ->
  forall t e, In (t, e) steps -> holds m e t (run (RA m) pl steps d0).
Proof. exact fold_invariant. Qed.
Print Assumptions C17_fold_invariant.

(* ... and an exogenized LHS keeps, to the end, the value implied by its plan transform at the time of the step *)
Theorem C17_exogenized_value_final : forall m pl pre t (e : eqn (RA m)) post (d0 : data (RA m)) (v : R),
  rbw m pl (pre ++ (t, e) :: post) -> step_ok m (t, e) ->
  detect (RA m) (get_transform (RA m) pl e t) (e_lhs e) t (run (RA m) pl pre d0) = Some v ->
  run (RA m) pl (pre ++ (t, e) :: post) d0 (e_lhs e) t = v.
Proof.
  intros m pl pre t e post d0 v Hrbw Hok Hd. rewrite run_app, run_cons.
  apply ordpairs_app in Hrbw as [_ [[Hs _] _]].
  rewrite run_frame; [destruct Hok as [Hwf _]; unfold step; rewrite Hd; now apply exogenize_cell_lhs|].
  intros s' Hs' Hw. apply (Hs s' Hs' _ Hw). apply in_or_app. left. now left.
Qed.
Print Assumptions C17_exogenized_value_final.

(* ... so that at the end the plan transform of the exogenized variable (x, log x, x - x[shift], log x - log x[shift],
   x / x[shift], 100*x/x[shift] - 100; flat: zero change) equals the conditioning series of the input databox *)
Theorem C17_exogenized_hits_target : forall m pl pre t (e : eqn (RA m)) post (d0 : data (RA m)) pp (v : R),
  rbw m pl (pre ++ (t, e) :: post) -> step_ok m (t, e) ->
  get_transform (RA m) pl e t = Some pp -> p_shift pp <> 0%Z ->
  (forall r s', p_row pp = Some r -> In s' pre -> ~ In (r, t) (writes m s')) ->
  detect (RA m) (Some pp) (e_lhs e) t (run (RA m) pl pre d0) = Some v ->
  let dN := run (RA m) pl (pre ++ (t, e) :: post) d0 in
  plan_dom (p_kind pp) (dN (e_lhs e) (t + p_shift pp)%Z) ->
  plan_of_level m (p_kind pp) (dN (e_lhs e) t) (dN (e_lhs e) (t + p_shift pp)%Z)
  = plan_target (p_kind pp) (match p_row pp with Some r => d0 r t | None => 0%R end).
Proof.
  intros m pl pre t e post d0 pp v Hrbw Hok Hgt Hsh Hrow Hd dN Hdom.
  assert (Hv : dN (e_lhs e) t = v).
  { unfold dN. apply C17_exogenized_value_final; [exact Hrbw | exact Hok | now rewrite Hgt]. }
  (* the reference value is final at the time of the step *)
  assert (Hlag : dN (e_lhs e) (t + p_shift pp)%Z = run (RA m) pl pre d0 (e_lhs e) (t + p_shift pp)%Z).
  { unfold dN. rewrite run_app, run_cons. apply ordpairs_app in Hrbw as [_ [[Hs _] _]].
    rewrite run_frame, step_frame; [reflexivity | apply other_column_not_written; lia |].
    intros s' Hs' Hw. apply (Hs s' Hs' _ Hw). apply in_or_app. right. unfold plan_cells. rewrite Hgt. now left. }
  rewrite Hlag in *. rewrite Hv.
  unfold detect in Hd. destruct (p_when_data pp && _)%bool in Hd; [discriminate|]. injection Hd as <-.
  destruct (p_row pp) as [r|] eqn:Hr.
  - rewrite (run_frame m pl pre d0 r t) by (intros s' Hs'; now apply (Hrow r s')).
    now apply plan_transform_implied.
  - now apply plan_transform_implied.
Qed.
Print Assumptions C17_exogenized_hits_target.

(* 5. execution_order = "dates_equations" on sequentially ordered models without leads of endogenous rows *)
Theorem C17_dates_equations : forall m pl cols (eqs : list (eqn (RA m))) (d0 : data (RA m)),
  increasing cols -> (forall e, In e eqs -> eqn_ok m e) ->
  no_endogenous_leads m pl cols eqs -> sequentially_ordered m pl cols eqs ->
  let dN := simulate_model (RA m) pl DatesEquations cols eqs d0 in
  (forall t e, In t cols -> In e eqs -> dom_ok m pl (t, e) dN) ->
  forall t e, In t cols -> In e eqs -> holds m e t dN.
Proof.
  intros m pl cols eqs d0 Hinc Hok Hlead Hseq. apply simulate_model_correct; [now apply rbw_dates_equations | exact Hok].
Qed.
Print Assumptions C17_dates_equations.

(* execution_order = "equations_dates" on models whose equations read rows of earlier equations and their own lags *)
Theorem C17_equations_dates : forall m pl cols (eqs : list (eqn (RA m))) (d0 : data (RA m)),
  increasing cols -> (forall e, In e eqs -> eqn_ok m e) ->
  no_own_leads m pl cols eqs -> reads_only_earlier m pl cols eqs ->
  let dN := simulate_model (RA m) pl EquationsDates cols eqs d0 in
  (forall t e, In t cols -> In e eqs -> dom_ok m pl (t, e) dN) ->
  forall t e, In t cols -> In e eqs -> holds m e t dN.
Proof.
  intros m pl cols eqs d0 Hinc Hok Hown Hearlier. apply simulate_model_correct; [now apply rbw_equations_dates | exact Hok].
Qed.
Print Assumptions C17_equations_dates.

(* the two orders are the iterators of _simulate_v, and both satisfy reads-before-writes under those conditions *)
Theorem C17_orders_are_reads_before_writes : forall m pl cols (eqs : list (eqn (RA m))),
  increasing cols ->
  (no_endogenous_leads m pl cols eqs -> sequentially_ordered m pl cols eqs ->
   rbw m pl (steps_dates_equations (RA m) cols eqs)) /\
  (no_own_leads m pl cols eqs -> reads_only_earlier m pl cols eqs ->
   rbw m pl (steps_equations_dates (RA m) cols eqs)).
Proof. intros m pl cols eqs H. split; [now apply rbw_dates_equations | now apply rbw_equations_dates]. Qed.
Print Assumptions C17_orders_are_reads_before_writes.

(* non-vacuity: a three-equation model (a level equation, a diff equation, an identity) with a plan exogenizing
   the first variable through its difference meets every hypothesis of both order theorems *)
Example C17_hypotheses_satisfiable : forall m,
  increasing ex_cols /\ (forall e, In e (ex_eqs m) -> eqn_ok m e) /\
  no_endogenous_leads m ex_plan ex_cols (ex_eqs m) /\ sequentially_ordered m ex_plan ex_cols (ex_eqs m) /\
  no_own_leads m ex_plan ex_cols (ex_eqs m) /\ reads_only_earlier m ex_plan ex_cols (ex_eqs m) /\
  (forall (d : data (RA m)) t e, In t ex_cols -> In e (ex_eqs m) -> dom_ok m ex_plan (t, e) d) /\
  (exists t e pp, In t ex_cols /\ In e (ex_eqs m) /\ get_transform (RA m) ex_plan e t = Some pp).
Proof.
  intros m.
  assert (Hearlier : reads_only_earlier m ex_plan ex_cols (ex_eqs m))
    by (apply reads_only_earlier_by_tokens; reflexivity).
  destruct (no_leads_at_all m ex_plan ex_cols (ex_eqs m)) as [Hlead Hown]; [reflexivity|].
  split; [unfold ex_cols; cbn; repeat split; fin|].
  split.
  { unfold ex_eqs, eqn_ok, wf_eqn. intros e He. in_cases; subst; cbn; repeat split; try intros ? ?; try intro; fin. }
  split; [exact Hlead|]. split; [now apply reads_only_earlier_sequentially_ordered|].
  split; [exact Hown|]. split; [exact Hearlier|].
  split.
  { unfold ex_eqs. intros d t e Ht He Hm. in_cases; subst; cbn; exact I. }
  exists 1%Z. eexists. eexists. split; [right; now left|]. split; [now left|]. reflexivity.
Qed.

(* 6. WHICH numbers the equations are evaluated with.  The initial working array is built from the input databox by
      slatable_for_simulate's fallbacks / overwrites (routing tables regenerated from the source, gen/SeqSlatableGen.v).
      parameters_from_data=False (the default): a parameter row carries the value assigned in the model in every
      column, whatever the input databox holds under that name and whatever shocks_from_data is ... *)
Theorem C17_slate_parameter_from_model : forall m (sm : seqmodel (RA m)) r (v : R) sfd (raw : data (RA m)) c,
  sm_ok m sm -> alookup (RA m) (sm_params sm) r = Some v ->
  initial_slate (RA m) sm false sfd raw r c = v.
Proof. exact slate_parameter_from_model. Qed.
Print Assumptions C17_slate_parameter_from_model.

(* ... parameters_from_data=True: the databox value where it is not missing, the model's value otherwise *)
Theorem C17_slate_parameter_from_data : forall m (sm : seqmodel (RA m)) r (v : R) sfd (raw : data (RA m)) c,
  sm_ok m sm -> alookup (RA m) (sm_params sm) r = Some v ->
  initial_slate (RA m) sm true sfd raw r c = if m (raw r c) then v else raw r c.
Proof. exact slate_parameter_from_data. Qed.
Print Assumptions C17_slate_parameter_from_data.

(* residual rows: shocks_from_data=True (the default) the input residual where present, zero otherwise;
   shocks_from_data=False zero everywhere -- whatever parameters_from_data is; all other rows are the databox rows *)
Theorem C17_slate_residual_rows : forall m (sm : seqmodel (RA m)) r pfd (raw : data (RA m)) c,
  sm_ok m sm -> In r (sm_resids sm) ->
  initial_slate (RA m) sm pfd true raw r c = (if m (raw r c) then 0 else raw r c)%R /\
  initial_slate (RA m) sm pfd false raw r c = 0%R.
Proof.
  intros m sm r pfd raw c Hok Hr. rewrite !initial_slate_spec, (Hok r Hr) by apply Hok.
  destruct (in_dec Nat.eq_dec r (sm_resids sm)); [split; reflexivity | contradiction].
Qed.
Print Assumptions C17_slate_residual_rows.

Theorem C17_slate_other_rows : forall m (sm : seqmodel (RA m)) r pfd sfd (raw : data (RA m)) c,
  alookup (RA m) (sm_params sm) r = None -> ~ In r (sm_resids sm) ->
  initial_slate (RA m) sm pfd sfd raw r c = raw r c.
Proof.
  intros m sm r pfd sfd raw c Hp Hn. rewrite initial_slate_spec, Hp by (intros Hr; contradiction).
  destruct (in_dec Nat.eq_dec r (sm_resids sm)); [contradiction | reflexivity].
Qed.
Print Assumptions C17_slate_other_rows.

Theorem C17_flag_defaults : default_parameters_from_data = false /\ default_shocks_from_data = true.
Proof. split; reflexivity. Qed.
Print Assumptions C17_flag_defaults.

(* a simulated period's residual is the input residual (zero where the databox has none), under shocks_from_data=True *)
Theorem C17_simulated_residual_is_input : forall m (sm : seqmodel (RA m)) pfd pl o cols (eqs : list (eqn (RA m)))
    (raw : data (RA m)) r c,
  sm_ok m sm -> In r (sm_resids sm) ->
  (forall s, In s (steps_of (RA m) o cols eqs) -> ~ In (r, c) (writes m s)) ->
  simulate_public (RA m) sm pfd true pl o cols eqs raw r c = (if m (raw r c) then 0 else raw r c)%R.
Proof.
  intros m sm pfd pl o cols eqs raw r c Hok Hr H. unfold simulate_public, simulate_model.
  rewrite run_frame by exact H. now apply slate_residual_from_data.
Qed.
Print Assumptions C17_simulated_residual_is_input.

(* 7. the public entry point with parameters_from_data=False, for EVERY input databox (also one holding entries named
      like the parameters), either shocks_from_data, any plan: the result does not depend on those entries ... *)
Theorem C17_parameter_data_ignored : forall m (sm : seqmodel (RA m)) sfd pl o cols (eqs : list (eqn (RA m)))
    (raw raw' : data (RA m)),
  sm_ok m sm -> (forall r c, alookup (RA m) (sm_params sm) r = None -> raw r c = raw' r c) ->
  simulate_public (RA m) sm false sfd pl o cols eqs raw = simulate_public (RA m) sm false sfd pl o cols eqs raw'.
Proof.
  intros m sm sfd pl o cols eqs raw raw' Hok H. unfold simulate_public. f_equal.
  apply FunctionalExtensionality.functional_extensionality. intros r.
  apply FunctionalExtensionality.functional_extensionality. intros c.
  destruct (alookup (RA m) (sm_params sm) r) as [v|] eqn:Hp.
  - now rewrite !(slate_parameter_from_model m sm r v) by assumption.
  - unfold initial_slate, slate_of. now rewrite (H r c Hp).
Qed.
Print Assumptions C17_parameter_data_ignored.

(* ... and at the end each equation, WITH THE MODEL'S PARAMETER VALUES written in place of the parameter names,
   holds together with its residual in every simulated period, under either execution order *)
Theorem C17_public_dates_equations : forall m (sm : seqmodel (RA m)) sfd pl cols (eqs : list (eqn (RA m)))
    (raw : data (RA m)),
  sm_ok m sm -> params_not_written m sm eqs ->
  increasing cols -> (forall e, In e eqs -> eqn_ok m e) ->
  no_endogenous_leads m pl cols eqs -> sequentially_ordered m pl cols eqs ->
  let dN := simulate_public (RA m) sm false sfd pl DatesEquations cols eqs raw in
  (forall t e, In t cols -> In e eqs -> dom_ok m pl (t, e) dN) ->
  forall t e, In t cols -> In e eqs -> holds m (subst_eqn (RA m) (sm_params sm) e) t dN.
Proof.
  intros m sm sfd pl cols eqs raw Hok Hnw Hinc Heq Hlead Hseq. apply simulate_public_correct; auto.
  now apply rbw_dates_equations.
Qed.
Print Assumptions C17_public_dates_equations.

Theorem C17_public_equations_dates : forall m (sm : seqmodel (RA m)) sfd pl cols (eqs : list (eqn (RA m)))
    (raw : data (RA m)),
  sm_ok m sm -> params_not_written m sm eqs ->
  increasing cols -> (forall e, In e eqs -> eqn_ok m e) ->
  no_own_leads m pl cols eqs -> reads_only_earlier m pl cols eqs ->
  let dN := simulate_public (RA m) sm false sfd pl EquationsDates cols eqs raw in
  (forall t e, In t cols -> In e eqs -> dom_ok m pl (t, e) dN) ->
  forall t e, In t cols -> In e eqs -> holds m (subst_eqn (RA m) (sm_params sm) e) t dN.
Proof.
  intros m sm sfd pl cols eqs raw Hok Hnw Hinc Heq Hown Hearl. apply simulate_public_correct; auto.
  now apply rbw_equations_dates.
Qed.
Print Assumptions C17_public_equations_dates.

(* parameters_from_data=True: the parameter rows used (and reported) are the databox values where present *)
Theorem C17_public_parameter_rows_from_data : forall m (sm : seqmodel (RA m)) sfd pl o cols (eqs : list (eqn (RA m)))
    (raw : data (RA m)) r (v : R) c,
  sm_ok m sm -> params_not_written m sm eqs -> alookup (RA m) (sm_params sm) r = Some v ->
  simulate_public (RA m) sm true sfd pl o cols eqs raw r c = if m (raw r c) then v else raw r c.
Proof. exact simulate_public_parameter_rows_from_data. Qed.
Print Assumptions C17_public_parameter_rows_from_data.

(* non-vacuity: y = p*y[-1] with p = 1/2 in the model meets every hypothesis of both theorems; with a databox that says
   p = 3/10 the simulation uses 1/2, and 3/10 under parameters_from_data=True *)
Example C17_public_hypotheses_satisfiable : forall m,
  sm_ok m (exs_sm m) /\ params_not_written m (exs_sm m) (exs_eqs m) /\ increasing exs_cols /\
  (forall e, In e (exs_eqs m) -> eqn_ok m e) /\
  no_endogenous_leads m exs_plan exs_cols (exs_eqs m) /\ sequentially_ordered m exs_plan exs_cols (exs_eqs m) /\
  no_own_leads m exs_plan exs_cols (exs_eqs m) /\ reads_only_earlier m exs_plan exs_cols (exs_eqs m) /\
  (forall (d : data (RA m)) t e, In t exs_cols -> In e (exs_eqs m) -> dom_ok m exs_plan (t, e) d).
Proof.
  intros m.
  destruct (no_leads_at_all m exs_plan exs_cols (exs_eqs m)) as [Hlead Hown]; [reflexivity|].
  assert (Hearlier : reads_only_earlier m exs_plan exs_cols (exs_eqs m))
    by (apply reads_only_earlier_by_tokens; reflexivity).
  unfold exs_cols, exs_eqs, exs_sm in *.
  split. { intros r Hr. cbn in Hr. in_cases; subst. reflexivity. }
  split.
  { intros e r v He Hp. cbn in Hp. destruct r as [|[|r]]; cbn in Hp; try discriminate.
    in_cases; subst; cbn; split; fin. }
  split; [cbn; repeat split; fin|].
  split.
  { intros e He. unfold eqn_ok, wf_eqn. in_cases; subst; cbn; repeat split; try intros ? ?; try intro; fin. }
  split; [exact Hlead|]. split; [now apply reads_only_earlier_sequentially_ordered|].
  split; [exact Hown|]. split; [exact Hearlier|].
  intros d t e Ht He Hm. in_cases; subst; cbn; exact I.
Qed.

Example C17_public_example_values : forall m (raw : data (RA m)) sfd pl o c,
  (forall c, raw 1%nat c = (3/10)%R) ->
  simulate_public (RA m) (exs_sm m) false sfd pl o exs_cols (exs_eqs m) raw 1%nat c = (1/2)%R /\
  (m (3/10)%R = false -> simulate_public (RA m) (exs_sm m) true sfd pl o exs_cols (exs_eqs m) raw 1%nat c = (3/10)%R).
Proof.
  intros m raw sfd pl o c Hraw. destruct (C17_public_hypotheses_satisfiable m) as [Hok [Hnw _]]. split.
  - now apply simulate_public_parameter_rows.
  - intros Hm. rewrite (simulate_public_parameter_rows_from_data m (exs_sm m) sfd pl o exs_cols (exs_eqs m) raw 1%nat (1/2)%R)
      by (assumption || reflexivity).
    now rewrite Hraw, Hm.
Qed.
