(* C11  Period conversions round-trip; frequency conversion preserves containment.
   The lemmas are in proofs/CodecsProofs.v (codecs, frequency conversion), proofs/CodecsExtProofs.v and
   proofs/CodecsExt2Proofs.v (sheets, arithmetic on serials, text of repr), lib/PyStr.v and lib/RegexSub.v.
   in_domain p      : p is a yearly / half-yearly / quarterly / monthly period of a year 1..9999, or a daily period
                      of the CPython date range;   sdmx_domain p : in_domain p, or p is an integer period (any integer).
   The SDMX patterns (gen_sdmx_formats), every format string (gen_to_sdmx_F, gen_to_iso, gen_repr_F), every
   from_sdmx_string body (gen_from_sdmx_F), month_to_segment and the day tables are regenerated from dates.py on every
   run; strings are lists of characters with the str/int/format semantics of lib/PyStr.v; fullmatch is lib/RegexSub.v. *)
From Coq Require Import ZArith String List.
From Verif Require Import lib.Calendar lib.RegexSub lib.PyStr gen.DatesGen model.Dates model.Codecs
     proofs.DatesProofs proofs.CodecsProofs gen.CodecsExtGen model.CodecsExt proofs.CodecsExtProofs
     model.CodecsExt2 proofs.CodecsExt2Proofs.
Import ListNotations.
Open Scope Z_scope.

(* 1. SDMX strings: for every period of every class the text produced by to_sdmx_string() decodes to the same period,
      with the frequency given AND with the frequency auto-detected from the text (first matching entry of
      SDMX_REXP_FORMATS). *)
Theorem C11_sdmx_roundtrip_autodetect : forall p, sdmx_domain p ->
  exists x, to_sdmx p = Ok x /\ from_sdmx_as (p_freq p) x = Ok p /\ detect x = Some (p_freq p) /\ from_sdmx x = Ok p.
Proof. exact sdmx_roundtrip_autodetect. Qed.
Print Assumptions C11_sdmx_roundtrip_autodetect.

(* 2. ISO strings at every position *)
Theorem C11_iso_roundtrip : forall p pos, in_domain p ->
  exists x, to_iso pos p = Ok x /\ from_iso (p_freq p) x = Ok p.
Proof. exact iso_roundtrip. Qed.
Print Assumptions C11_iso_roundtrip.

(* 3. (year, segment) *)
Theorem C11_year_segment_roundtrip : forall p, in_domain p ->
  exists y seg, to_year_segment p = Ok (y, seg) /\ from_year_segment (p_freq p) y seg = Ok p.
Proof.
  intros [f s] [[R Y] | [E C]]; cbn [p_freq p_serial] in *.
  - destruct (accessors_vs_calendar_regular f s R) as (A & _ & _ & _ & B & _). eauto.
  - subst f. destruct (accessors_vs_calendar_daily s C) as (_ & _ & A & _ & _ & _ & B & _). eauto.
Qed.
Print Assumptions C11_year_segment_roundtrip.

(* 4. (year, month, day) at start / middle / end *)
Theorem C11_ymd_roundtrip : forall p pos, in_domain p ->
  exists y m d, to_ymd pos p = Ok (y, m, d) /\ from_ymd (p_freq p) y m d = Ok p.
Proof. exact ymd_roundtrip. Qed.
Print Assumptions C11_ymd_roundtrip.

(* 5. Python dates (to_python_date accepts the date, from_python_date returns the period) *)
Theorem C11_pydate_roundtrip : forall p pos, in_domain p ->
  exists t, to_pydate pos p = Ok t /\ from_pydate (p_freq p) t = Ok p.
Proof. exact pydate_roundtrip. Qed.
Print Assumptions C11_pydate_roundtrip.

(* 6. repr: the constructor call written by repr, evaluated, is the period (term level; the text of repr is tied to
      the implementation by the correspondence, Python's eval is outside the model) *)
Theorem C11_repr_roundtrip : forall p, sdmx_domain p ->
  exists t, repr_term p = Ok t /\ eval_term t = Ok p.
Proof. exact repr_roundtrip. Qed.
Print Assumptions C11_repr_roundtrip.

(* 7. converting to another calendar frequency returns the target period that contains the chosen day of the source *)
Theorem C11_refrequent_contains : forall p pos g, in_domain p -> cal_freq g ->
  exists r y m d a c,
    refrequent g pos p = Ok r /\ p_freq r = g /\ to_ymd pos p = Ok (y, m, d) /\
    to_ymd PStart r = Ok a /\ to_ymd PEnd r = Ok c /\
    ord3 a <= ord_of_ymd y m d <= ord3 c.
Proof. exact refrequent_contains. Qed.
Print Assumptions C11_refrequent_contains.

(* 8. ... so conversion is monotone *)
Theorem C11_refrequent_monotone : forall p q pos g r r', in_domain p -> in_domain q -> cal_freq g ->
  p_freq p = p_freq q -> p_serial p <= p_serial q ->
  refrequent g pos p = Ok r -> refrequent g pos q = Ok r' -> p_freq r = p_freq r' /\ p_serial r <= p_serial r'.
Proof. exact refrequent_monotone. Qed.
Print Assumptions C11_refrequent_monotone.

(* 9. ... and coarse -> fine -> coarse never leaves the original coarse period: every ordered pair (f coarser, g finer:
      g a multiple of f among 1, 2, 4, 12, or g daily), every position on the way down and on the way back *)
Theorem C11_coarse_fine_coarse : forall f g s pos1 pos2, finer f g -> 1 <= s / f <= MAXYEAR ->
  exists r, refrequent g pos1 (mkP f s) = Ok r /\ p_freq r = g /\ refrequent f pos2 r = Ok (mkP f s).
Proof. exact coarse_fine_coarse. Qed.
Print Assumptions C11_coarse_fine_coarse.

(* the regular-expression matcher used for detection is the language semantics of the pattern *)
Theorem C11_fullmatch_spec : forall r s, fullmatch r s = true <-> Matches r s.
Proof. exact fullmatch_spec. Qed.
Print Assumptions C11_fullmatch_spec.

(* str(int) / int(str) of the string model are mutually inverse *)
Theorem C11_int_text_roundtrip : forall n, parse_int (dec_int n) = Some n.
Proof. exact parse_int_dec_int. Qed.
Print Assumptions C11_int_text_roundtrip.

(* 10. the import/export path (databoxes/_exports.py, _imports.py): the date columns of a sheet with any number of
       frequency blocks of any lengths (padded to the longest block) come back as the periods written, each block decoded
       with the frequency of its own mark and nothing else -- default codecs (str / Period.from_sdmx_string) ... *)
Theorem C11_sheet_sdmx_roundtrip : forall blocks, Forall (block_ok sdmx_domain) blocks ->
  exists cols, export_sheet (fmt_period FmtSdmx) blocks = Ok cols /\
               import_sheet (parse_cell ParSdmx) false cols = Ok (map (fun b => (fst b, enumerate_from 0 (snd b))) blocks).
Proof. exact (sheet_roundtrip_generic _ _ _ sdmx_rt_pair sdmx_cell_nonempty). Qed.
Print Assumptions C11_sheet_sdmx_roundtrip.

(* ... and ISO codecs (to_iso_string at any position / Period.from_iso_string), where blocks of different frequencies
   hold the same text *)
Theorem C11_sheet_iso_roundtrip : forall pos blocks, Forall (block_ok in_domain) blocks ->
  exists cols, export_sheet (fmt_period (FmtIso pos)) blocks = Ok cols /\
               import_sheet (parse_cell ParIso) false cols = Ok (map (fun b => (fst b, enumerate_from 0 (snd b))) blocks).
Proof. intros pos. exact (sheet_roundtrip_generic _ _ _ (iso_rt_pair pos) (iso_cell_nonempty pos)). Qed.
Print Assumptions C11_sheet_iso_roundtrip.

(* start_period_only=True, in general (a block of any length, any padding `total`, SDMX and ISO codecs at every position):
   only the first cell is decoded; the rows of the block are start + 0, start + 1, ... for EVERY data row of the sheet
   (start_only_rows p0 n = [(0, p0 + 0); ...; (n-1, p0 + (n-1))], padding rows included); on the block's own rows the import
   returns exactly the exported periods IF AND ONLY IF the block is a run of consecutive periods (run_from p0 n). *)
Theorem C11_sheet_start_only_sdmx : forall b total, block_ok sdmx_domain b ->
  exists p0 rest cells,
    snd b = p0 :: rest /\
    export_column (fmt_period FmtSdmx) total (snd b) = Ok cells /\
    length cells = (length (snd b) + gen_export_padding total (length (snd b)))%nat /\
    extract_block (parse_cell ParSdmx) true (fst b) cells = Ok (start_only_rows p0 (length cells)) /\
    (firstn (length (snd b)) (start_only_rows p0 (length cells)) = enumerate_from 0 (snd b)
       <-> snd b = run_from p0 (length (snd b))).
Proof. exact (start_only_block_general _ _ _ sdmx_rt_pair). Qed.
Print Assumptions C11_sheet_start_only_sdmx.

Theorem C11_sheet_start_only_iso : forall pos b total, block_ok in_domain b ->
  exists p0 rest cells,
    snd b = p0 :: rest /\
    export_column (fmt_period (FmtIso pos)) total (snd b) = Ok cells /\
    length cells = (length (snd b) + gen_export_padding total (length (snd b)))%nat /\
    extract_block (parse_cell ParIso) true (fst b) cells = Ok (start_only_rows p0 (length cells)) /\
    (firstn (length (snd b)) (start_only_rows p0 (length cells)) = enumerate_from 0 (snd b)
       <-> snd b = run_from p0 (length (snd b))).
Proof. intros pos. exact (start_only_block_general _ _ _ (iso_rt_pair pos)). Qed.
Print Assumptions C11_sheet_start_only_iso.

(* ... and the whole sheet (any number of blocks): every block is a function of its own first cell and of the number of
   data rows of the sheet, nothing else *)
Theorem C11_sheet_start_only_sdmx_sheet : forall blocks, Forall (block_ok sdmx_domain) blocks ->
  exists cols, export_sheet (fmt_period FmtSdmx) blocks = Ok cols /\
    import_sheet (parse_cell ParSdmx) true cols
      = Ok (map (fun b => (fst b, start_only_rows (hd (mkP 0 0) (snd b))
                   (length (snd b) + gen_export_padding (total_rows blocks) (length (snd b))))) blocks).
Proof. exact (start_only_sheet _ _ _ sdmx_rt_pair). Qed.
Print Assumptions C11_sheet_start_only_sdmx_sheet.

Theorem C11_sheet_start_only_iso_sheet : forall pos blocks, Forall (block_ok in_domain) blocks ->
  exists cols, export_sheet (fmt_period (FmtIso pos)) blocks = Ok cols /\
    import_sheet (parse_cell ParIso) true cols
      = Ok (map (fun b => (fst b, start_only_rows (hd (mkP 0 0) (snd b))
                   (length (snd b) + gen_export_padding (total_rows blocks) (length (snd b))))) blocks).
Proof. intros pos. exact (start_only_sheet _ _ _ (iso_rt_pair pos)). Qed.
Print Assumptions C11_sheet_start_only_iso_sheet.

(* non-vacuity: a consecutive quarterly block is a run; a block with a hole is not, and its second row is read as start + 1 *)
Example C11_start_only_example :
  block_ok in_domain (4, [mkP 4 8084; mkP 4 8085; mkP 4 8086]) /\ block_ok in_domain (4, [mkP 4 8084; mkP 4 8086]) /\
  [mkP 4 8084; mkP 4 8085; mkP 4 8086] = run_from (mkP 4 8084) 3 /\ [mkP 4 8084; mkP 4 8086] <> run_from (mkP 4 8084) 2 /\
  bind (export_column (fmt_period (FmtIso PEnd)) 4 [mkP 4 8084; mkP 4 8086]) (extract_block (parse_cell ParIso) true 4)
    = Ok [(0, mkP 4 8084); (1, mkP 4 8085); (2, mkP 4 8086); (3, mkP 4 8087)].
Proof. exact start_only_example. Qed.

(* duplicate periods inside a block and unsorted rows (nothing in block_ok asks for sorted or distinct periods): the rows read
   are (i, the period written in row i); Series.set_data writes them in order, so the imported series holds at q the LAST row
   that carries q (series_lookup), holds nothing at a period that was not written, and when no period repeats every row is
   visible whatever the order of the rows (surviving_rows = the rows read) *)
Theorem C11_sheet_last_write_sdmx : forall b total, block_ok sdmx_domain b ->
  exists cells, export_column (fmt_period FmtSdmx) total (snd b) = Ok cells /\
    extract_block (parse_cell ParSdmx) false (fst b) cells = Ok (enumerate_from 0 (snd b)) /\
    (forall q, series_lookup (enumerate_from 0 (snd b)) q = None <-> ~ In q (snd b)) /\
    (forall q i, series_lookup (enumerate_from 0 (snd b)) q = Some i <->
       exists r1 r2, enumerate_from 0 (snd b) = r1 ++ (i, q) :: r2 /\ ~ In q (map snd r2)) /\
    (NoDup (snd b) -> surviving_rows (enumerate_from 0 (snd b)) = enumerate_from 0 (snd b)).
Proof. exact (block_last_write _ _ _ sdmx_rt_pair sdmx_cell_nonempty). Qed.
Print Assumptions C11_sheet_last_write_sdmx.

Theorem C11_sheet_last_write_iso : forall pos b total, block_ok in_domain b ->
  exists cells, export_column (fmt_period (FmtIso pos)) total (snd b) = Ok cells /\
    extract_block (parse_cell ParIso) false (fst b) cells = Ok (enumerate_from 0 (snd b)) /\
    (forall q, series_lookup (enumerate_from 0 (snd b)) q = None <-> ~ In q (snd b)) /\
    (forall q i, series_lookup (enumerate_from 0 (snd b)) q = Some i <->
       exists r1 r2, enumerate_from 0 (snd b) = r1 ++ (i, q) :: r2 /\ ~ In q (map snd r2)) /\
    (NoDup (snd b) -> surviving_rows (enumerate_from 0 (snd b)) = enumerate_from 0 (snd b)).
Proof. intros pos. exact (block_last_write _ _ _ (iso_rt_pair pos) (iso_cell_nonempty pos)). Qed.
Print Assumptions C11_sheet_last_write_iso.

Example C11_last_write_example :
  surviving_rows (enumerate_from 0 [mkP 4 8086; mkP 4 8084; mkP 4 8086; mkP 4 8085])
    = [(1, mkP 4 8084); (2, mkP 4 8086); (3, mkP 4 8085)] /\
  series_lookup (enumerate_from 0 [mkP 4 8086; mkP 4 8084; mkP 4 8086; mkP 4 8085]) (mkP 4 8086) = Some 2 /\
  series_lookup (enumerate_from 0 [mkP 4 8086; mkP 4 8084; mkP 4 8086; mkP 4 8085]) (mkP 4 8087) = None.
Proof. exact last_write_example. Qed.

(* eval(repr(p)) = p on the TEXT: the text written by repr (yy(2020), qq(2020,1), dd(2020,1,31), ii(-5), ...) is read by
       the parser of the repr grammar (name, "(", optionally signed integers separated by ",", ")") as exactly the constructor
       and integers of the structured term, whose evaluation is p -- every period of every class *)
Theorem C11_repr_text_roundtrip : forall p, sdmx_domain p ->
  exists x t, repr_str p = Ok x /\ parse_repr x = Some t /\ repr_term p = Ok t /\ eval_term t = Ok p /\
              eval_repr_text x = Ok p.
Proof.
  intros p D. destruct (repr_text p D) as (name & a & r & L & T & S).
  destruct (repr_roundtrip p D) as (t & T' & Ev). rewrite T in T'. injection T' as <-.
  exists (call_text name a r), (name, a :: r).
  pose proof (parse_call name a r L) as P.
  repeat split; try assumption. unfold eval_repr_text. rewrite P. exact Ev.
Qed.
Print Assumptions C11_repr_text_roundtrip.

(* the parser reads back every call text, negative integers included *)
Theorem C11_parse_call : forall name a r, forallb is_letter name = true -> parse_repr (call_text name a r) = Some (name, a :: r).
Proof. exact parse_call. Qed.
Print Assumptions C11_parse_call.

Example C11_repr_text_example :
  sdmx_domain (mkP freq_INTEGER (-5)) /\ repr_str (mkP freq_INTEGER (-5)) = Ok (s2l "ii(-5)") /\
  parse_repr (s2l "ii(-5)") = Some (s2l "ii", [-5]) /\ eval_repr_text (s2l "ii(-5)") = Ok (mkP freq_INTEGER (-5)) /\
  parse_repr (s2l "dd(2021,7,29)") = Some (s2l "dd", [2021; 7; 29]) /\
  eval_repr_text (s2l "dd(2021,7,29)") = Ok (mkP freq_DAILY 738000) /\
  parse_repr (s2l "qq(2021,1") = None /\ parse_repr (s2l "qq(2021,,1)") = None /\ parse_repr (s2l "qq(2021,1))") = None.
Proof. exact repr_text_example. Qed.

(* 11. periods reached by arithmetic with Python-int or numpy-int offsets (p + k, k + p, p - k, p.shift(k), any
       history): the serial is a builtin int, the period is the one computed on plain integers, its repr text is the
       plain repr, and the repr term evaluates back to it *)
Theorem C11_arith_serial_pyint : forall f s ops, tt (tp_serial (run_arith gen_casts (tp_init gen_casts f s) ops)) = TPy.
Proof. intros. apply arith_serial_pyint_any_casts. reflexivity. Qed.
Print Assumptions C11_arith_serial_pyint.

Theorem C11_arith_repr_roundtrip : forall f s ops,
  let q := run_arith gen_casts (tp_init gen_casts f s) ops in
  sdmx_domain (untag q) ->
  untag q = run_plain (mkP f (tv s)) ops /\ repr_str_t q = repr_str (untag q) /\
  exists t, repr_term (untag q) = Ok t /\ eval_term t = Ok (untag q).
Proof.
  intros f s ops q D. split; [|split].
  - unfold q. rewrite arith_untag. unfold tp_init, untag. cbn [tp_freq tp_serial]. rewrite tv_cast. reflexivity.
  - apply repr_str_t_py. apply C11_arith_serial_pyint.
  - apply repr_roundtrip. exact D.
Qed.
Print Assumptions C11_arith_repr_roundtrip.

(* without the int() of Period.__init__ (and of __add__) one numpy offset makes the repr text a non-constructor text *)
Theorem C11_arith_without_casts_refuted :
  let c := mkCasts false false false in
  let q := run_arith c (tp_init c 4 (mkT 8080 TPy)) [AAdd (mkT 3 TNp); AAdd (mkT 1 TPy)] in
  tt (tp_serial q) = TNp /\ untag q = mkP 4 8084 /\
  repr_str_t q = Ok (s2l "qq(np.int64(2021),np.int64(1))") /\ repr_str (untag q) = Ok (s2l "qq(2021,1)").
Proof. vm_compute. repeat split; reflexivity. Qed.
Print Assumptions C11_arith_without_casts_refuted.

Example C11_ext_examples :
  block_ok in_domain (1, [mkP 1 2021; mkP 1 2022]) /\ block_ok in_domain (4, [mkP 4 8084]) /\
  export_sheet (fmt_period (FmtIso PStart)) [(1, [mkP 1 2021; mkP 1 2022]); (4, [mkP 4 8084])]
    = Ok [(1, [s2l "2021-01-01"; s2l "2022-01-01"]); (4, [s2l "2021-01-01"; []])] /\
  import_sheet (parse_cell ParIso) false [(1, [s2l "2021-01-01"; s2l "2022-01-01"]); (4, [s2l "2021-01-01"; []])]
    = Ok [(1, [(0, mkP 1 2021); (1, mkP 1 2022)]); (4, [(0, mkP 4 8084)])].
Proof. exact sheet_iso_example. Qed.

(* non-vacuity and concrete instances (quarterly, integer, leap-day ISO string, daily repr, quarterly <-> monthly) *)
Example C11_examples :
  in_domain (mkP 4 8082) /\ in_domain (mkP freq_DAILY 738000) /\ sdmx_domain (mkP freq_INTEGER (-5)) /\
  finer 4 12 /\ finer 2 freq_DAILY /\ cal_freq 12 /\
  to_sdmx (mkP 4 8082) = Ok (s2l "2020-Q3") /\ from_sdmx (s2l "2020-Q3") = Ok (mkP 4 8082) /\
  to_sdmx (mkP freq_INTEGER (-5)) = Ok (s2l "(-5)") /\ from_sdmx (s2l "(-5)") = Ok (mkP freq_INTEGER (-5)) /\
  to_iso PEnd (mkP 12 24241) = Ok (s2l "2020-02-29") /\ repr_str (mkP freq_DAILY 738000) = Ok (s2l "dd(2021,7,29)") /\
  refrequent 12 PEnd (mkP 4 8082) = Ok (mkP 12 24248) /\ refrequent 4 PMiddle (mkP 12 24248) = Ok (mkP 4 8082).
Proof. exact codecs_examples. Qed.
