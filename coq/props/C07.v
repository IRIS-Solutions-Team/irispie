(* C07  Simulation plans hit exogenized points exactly; swaps invert a simulation.
   The lemmas used are in lib/PlanRegs.v and proofs/PlanLoopProofs.v (plan bookkeeping, variant loop),
   lib/PlanStacked.v (method stacked_time, on the frames / wrt_spots model of C06), proofs/PlansProofs.v and
   lib/PlansFord.v (method first_order, on the Kalman model of C03/C08).

   The models: model/Plans.v
     Part A  the four registers of a SimulationPlan of a Simultaneous model as a state machine over the history of
             exogenize_* / endogenize_* / swap_* calls (names and periods resolved and validated as the code does,
             raising calls leave the registers as they are), and the views the simulators read;
     Part B  _simulate_conditional: the Kalman smoother of model/Kalman.v run on the state
             [xi; endogenized anticipated shocks] with Z selecting the exogenized rows, H = 0, D = 0, zero initial MSE
             on xi, shock variances std^2 on the endogenized cells and 0 elsewhere (aug_period, cond_run), the
             transition of the augmented block through _generate_R (gen_R), the write-back of _store_smooth.
   The same Part B text is evaluated in 2^-384 fixed point inside the frame loop (lib/PlansCase.v) and compared with
   Simultaneous.simulate(..., plan=..., method="first_order") by harness/C07.py; Part A is compared exactly. *)

(* 1. plan bookkeeping (any history of calls) *)
From Coq Require Import List Bool Arith ZArith Lia.
From Verif Require Import lib.MatOps model.Kalman model.Plans lib.PlanRegs.
Import ListNotations.

(* 1a. the state machine invariant: after ANY history of calls on a well-formed plan the plan is well-formed (every
       register row has one entry per period), has the same span and the same names, and every register point holds
       what the elementary writes of the history leave there: the last one covering the point wins *)
Theorem C07_history_invariant : forall (cs : list call) (p : plan), wf_plan p ->
  let p' := fst (apply_calls p cs) in
  wf_plan p' /\ same_shape p p' /\
  (forall r n k, point p' r n k = after_writes r n k (point p r n k) (flat_map (ewrites_of_call p) cs)).
Proof. exact apply_calls_spec. Qed.
Print Assumptions C07_history_invariant.

(* 1b. on a fresh SimulationPlan(model, span): a point is None unless some valid call covered it, and then it holds
       the status of the last such call; calls with names outside the register or dates outside the span write
       nothing (swap_* keeps the writes made before the failing one) *)
Theorem C07_registers_last_write_wins : forall start nper nvar nshock cs r n k,
  let p0 := new_plan start nper nvar nshock in
  point (fst (apply_calls p0 cs)) r n k = after_writes r n k SNone (flat_map (ewrites_of_call p0) cs).
Proof. exact registers_last_write_wins. Qed.
Print Assumptions C07_registers_last_write_wins.

(* 1c. one validated write changes exactly the points (name in names) x (period in periods) of its register *)
Theorem C07_write_changes_covered_points : forall p r dates names v, wf_plan p ->
  let p' := fst (write_to_register p r dates names v) in
  wf_plan p' /\ same_shape p p' /\
  (forall r' n k, point p' r' n k =
     match ew_of p r dates names v with Some w => apply_ew r' n k (point p r' n k) w | None => point p r' n k end).
Proof. exact write_to_register_spec. Qed.
Print Assumptions C07_write_changes_covered_points.

(* 1d. the views: get_register_as_bool_array (what both simulators read), is_empty,
       any_endogenized_*_except_start (decides frame splitting), get_<register>(), get_<register>_in_period *)
Theorem C07_bool_array_view : forall p r names periods i j, i < length names -> j < length periods ->
  nth j (nth i (bool_array p r names periods) []) false =
  let d := nth j periods 0%Z in
  if in_span p d then status_bool (point p r (nth i names 0) (Z.to_nat (d - pl_start p))) else false.
Proof. exact bool_array_spec. Qed.
Print Assumptions C07_bool_array_view.

Theorem C07_is_empty_view : forall p,
  plan_is_empty p = true <-> forall r n k, is_active (point p r n k) = false.
Proof.
  intros p.
  unfold plan_is_empty. rewrite negb_true_iff. split.
  - intros H r n k. destruct (is_active (point p r n k)) eqn:E; auto. exfalso.
    assert (A : has_points (get_register p r) = true) by (apply has_points_spec; exists n, k; auto).
    rewrite !orb_false_iff in H. destruct H as [[[H1 H2] H3] H4]. destruct r; simpl in A; congruence.
  - intros H. rewrite !orb_false_iff.
    assert (A : forall r, has_points (get_register p r) = false).
    { intros r. destruct (has_points (get_register p r)) eqn:E; auto.
      apply has_points_spec in E; destruct E as (n & k & E). unfold point in H. rewrite H in E; discriminate. }
    repeat split; [apply (A ExogAnt)|apply (A ExogUnant)|apply (A EndogUnant)|apply (A EndogAnt)].
Qed.
Print Assumptions C07_is_empty_view.

Theorem C07_any_except_start_view : forall p r,
  any_except_start p r = true <-> exists n k, is_active (point p r n (S k)) = true.
Proof.
  intros p r.
  unfold any_except_start, point, gpoint. rewrite (existsb_nth_iff _ _ []) by reflexivity.
  assert (T : forall row k, nth k (tl row) SNone = nth (S k) row SNone) by (intros [|x row] [|k]; reflexivity).
  split; intros (n & H); exists n.
  - apply (existsb_nth_iff is_active _ SNone) in H; auto. destruct H as (k & H); exists k. rewrite <- T; exact H.
  - destruct H as (k & H). apply (existsb_nth_iff is_active _ SNone); auto. exists k. rewrite T; exact H.
Qed.
Print Assumptions C07_any_except_start_view.

Theorem C07_registered_periods_view : forall p r n d, n < length (get_register p r) ->
  In d (nth n (registered_periods p r) []) <->
  exists k, k < length (nth n (get_register p r) []) /\ d = (pl_start p + Z.of_nat k)%Z /\ is_active (point p r n k) = true.
Proof.
  intros p r n d Hn. unfold registered_periods, point, gpoint.
  rewrite (nth_map_lt _ _ n []), in_map_iff by assumption. split.
  - intros (k & E & Hk). apply filter_In in Hk; destruct Hk as [Hs Ha]. apply in_seq in Hs.
    exists k; repeat split; auto; lia.
  - intros (k & Hk & E & Ha). exists k; split; auto. apply filter_In; split; auto. apply in_seq; lia.
Qed.
Print Assumptions C07_registered_periods_view.

Theorem C07_names_in_period_view : forall p r d n,
  In n (names_in_period p r d) <->
  n < length (get_register p r) /\ status_bool (point p r n (Z.to_nat (d - pl_start p))) = true.
Proof.
  intros p r d n.
  unfold names_in_period, point, gpoint. rewrite filter_In, in_seq. split; intros [A B]; split; auto; lia.
Qed.
Print Assumptions C07_names_in_period_view.

(* 1e. the boolean incidence arrays the simulators (fords/simulators.py, stacked_time/simulators.py) and the frame
       splitter read, over ANY history of calls on a fresh plan: an entry is True iff its period is in the base span and
       the LAST elementary write covering (name, period) had status=True; points switched off by status=False read
       False like points never written.  The element formula is the one in the source (gen/PlanLoopGen.v, regenerated
       on every run from get_register_as_bool_array and _is_active_status) *)
From Verif Require Import gen.PlanLoopGen proofs.PlanLoopProofs.

Theorem C07_bool_array_element_is_source_formula : forall p row d,
  point_bool p row d
  = gen_point_value status_bool st_is_none st_is_true st_is_false (negb (in_span p d))
                    (nth (Z.to_nat (d - pl_start p)) row SNone).
Proof. exact point_bool_generated. Qed.
Print Assumptions C07_bool_array_element_is_source_formula.

Theorem C07_is_active_is_source_formula : forall s,
  is_active s = gen_is_active status_bool st_is_none st_is_true st_is_false s.
Proof.
  intros s.
 destruct s; reflexivity. 
Qed.
Print Assumptions C07_is_active_is_source_formula.

Theorem C07_bool_array_last_write_wins : forall start nper nvar nshock cs r names periods i j,
  i < length names -> j < length periods ->
  let p0 := new_plan start nper nvar nshock in
  let p := fst (apply_calls p0 cs) in
  let d := nth j periods 0%Z in
  nth j (nth i (bool_array p r names periods) []) false = true <->
  in_span p0 d = true /\
  after_writes r (nth i names 0) (Z.to_nat (d - start)) SNone (flat_map (ewrites_of_call p0) cs) = STrue.
Proof. exact bool_array_last_write_wins. Qed.
Print Assumptions C07_bool_array_last_write_wins.

Theorem C07_switched_off_reads_false : forall start nper nvar nshock cs r names periods i j,
  i < length names -> j < length periods ->
  let p0 := new_plan start nper nvar nshock in
  after_writes r (nth i names 0) (Z.to_nat (nth j periods 0%Z - start)) SNone (flat_map (ewrites_of_call p0) cs) <> STrue ->
  nth j (nth i (bool_array (fst (apply_calls p0 cs)) r names periods) []) false = false.
Proof.
  intros start nper nvar nshock cs r names periods i j Hi Hj p0 H.
  destruct (nth j (nth i (bool_array (fst (apply_calls p0 cs)) r names periods) []) false) eqn:E; auto.
  apply (bool_array_last_write_wins start nper nvar nshock cs r names periods i j Hi Hj) in E.
  destruct E as [_ E]. contradiction.
Qed.
Print Assumptions C07_switched_off_reads_false.

(* 1'. the loop over variants of Simultaneous.simulate (model/SimVariants.v over gen/PlanLoopGen.v) *)
From Verif Require Import model.Variants model.SimVariants.

(* variant k of the result of simulate(...) on a model with any number of variants and a databox with any number of
   columns = the one-variant simulation (sim1: create_frames, initial guess, frame loop; any simulator) of model
   variant k, reading the exogenized values from, and working on, variant k of the input data; etl = exhaust_then_last *)
Theorem C07_variant_loop_pointwise : forall (MV DS PL : Type) (dm : MV) (dd : DS) (sim1 : MV -> PL -> DS -> DS -> DS)
    nv ms pl ds k, k < nv ->
  nth k (simulate_variants MV DS PL dm dd sim1 nv ms pl ds) dd = sim1 (etl MV ms dm k) pl (etl DS ds dd k) (etl DS ds dd k).
Proof. exact variant_pointwise. Qed.
Print Assumptions C07_variant_loop_pointwise.

Theorem C07_variant_equals_single_variant_call : forall (MV DS PL : Type) (dm : MV) (dd : DS) (sim1 : MV -> PL -> DS -> DS -> DS)
    nv ms pl ds k, k < nv ->
  nth k (simulate_variants MV DS PL dm dd sim1 nv ms pl ds) dd
  = nth 0 (simulate_variants MV DS PL dm dd sim1 1 [etl MV ms dm k] pl [etl DS ds dd k]) dd.
Proof.
  intros MV DS PL dm dd sim1 nv ms pl ds k H. rewrite variant_pointwise by auto. rewrite variant_pointwise by auto. reflexivity.
Qed.
Print Assumptions C07_variant_equals_single_variant_call.

Theorem C07_other_variants_irrelevant : forall (MV DS PL : Type) (dm : MV) (dd : DS) (sim1 : MV -> PL -> DS -> DS -> DS)
    nv ms ms' pl ds ds' k, k < nv ->
  etl MV ms dm k = etl MV ms' dm k -> etl DS ds dd k = etl DS ds' dd k ->
  nth k (simulate_variants MV DS PL dm dd sim1 nv ms pl ds) dd = nth k (simulate_variants MV DS PL dm dd sim1 nv ms' pl ds') dd.
Proof.
  intros MV DS PL dm dd sim1 nv ms ms' pl ds ds' k.
 intros H A B. rewrite !variant_pointwise by auto. rewrite A, B. reflexivity. 
Qed.
Print Assumptions C07_other_variants_irrelevant.

(* the clause "every exogenized variable equals its input value at every exogenized date" for every variant: given
   that the one-variant simulator leaves the values of ITS input_data_array in the exogenized cells (3a for
   first_order, 2b for stacked_time), variant k of the result carries variant k's input values there *)
Theorem C07_every_variant_hits_its_own_input : forall (MV DS PL : Type) (dm : MV) (dd : DS)
    (sim1 : MV -> PL -> DS -> DS -> DS) (cell val : Type) (get : DS -> cell -> val) (exogenized : PL -> cell -> bool),
  (forall m pl input work c, exogenized pl c = true -> get (sim1 m pl input work) c = get input c) ->
  forall nv ms pl ds k c, k < nv -> k < length ds -> exogenized pl c = true ->
  get (nth k (simulate_variants MV DS PL dm dd sim1 nv ms pl ds) dd) c = get (nth k ds dd) c.
Proof.
  intros MV DS PL dm dd sim1 cell val get exogenized sim1_hits nv ms pl ds k c H L E. rewrite variant_pointwise by auto. rewrite sim1_hits by auto.
  unfold etl. f_equal. apply nth_indep. exact L.
Qed.
Print Assumptions C07_every_variant_hits_its_own_input.

(* 2. method stacked_time: swapping unknown cells (model/Stacked.v of C06) *)
From Verif Require Import gen.FramesGen model.Frames model.Stacked proofs.StackedProofs lib.PlanStacked.

(* 2a. the unknown cells of a frame = endogenous cells, minus the exogenized, plus the endogenized ones *)
Theorem C07_stacked_swapped_unknowns : forall p cols qids s,
  In s (wrt_spots (Some p) cols qids) <->
  (In s (base_spots cols qids) /\ ~ In s (exogenized_spots p cols)) \/ In s (endogenized_spots p cols).
Proof. intros p cols qids s. apply swap_spots_In. Qed.
Print Assumptions C07_stacked_swapped_unknowns.

(* 2b. every exogenized cell carries its input value after the frame is simulated, whatever the solver returns *)
Theorem C07_stacked_exogenized_hit : forall (V : Type) (dflt zero : V) S input main f oracle q c,
  In (q, c) (frame_exog S f) ->
  touched (frame_wrt S f) (frame_term S f) q c = false ->
  inb main q c = true ->
  get dflt (fst (step_frame dflt zero S input main f oracle)) q c = get dflt input q c.
Proof. exact @exogenized_untouched. Qed.
Print Assumptions C07_stacked_exogenized_hit.

(* 2c. only endogenized shocks can change: outside the endogenous rows the unknown cells are endogenized cells, and a
       shock cell that is not endogenized in the frame keeps its value *)
Theorem C07_stacked_shock_unknowns_are_endogenized : forall p cols qids q c,
  ~ In q qids -> In (q, c) (wrt_spots (Some p) cols qids) -> In (q, c) (endogenized_spots p cols).
Proof. exact shock_unknowns_are_endogenized. Qed.
Print Assumptions C07_stacked_shock_unknowns_are_endogenized.

Theorem C07_stacked_shock_cell_kept : forall (V : Type) (dflt : V) pre oracle p cols qids term q c,
  ~ In q qids ->
  match term with Some t => ~ In q (t_curr_xi_qids t) /\ ~ In q (t_logly t) | None => True end ->
  ~ In (q, c) (endogenized_spots p cols) ->
  get dflt (frame_after dflt pre oracle (wrt_spots (Some p) cols qids) term) q c = get dflt pre q c.
Proof.
  intros V dflt pre oracle p cols qids term q c Hq Ht He.
  apply frame_after_untouched. unfold touched.
  assert (E : smem (q, c) (wrt_spots (Some p) cols qids) = false).
  { apply smem_false. intros Hw. apply He. eapply shock_unknowns_are_endogenized; eauto. }
  rewrite E. simpl. destruct term as [t|]; auto.
  destruct Ht as [H1 H2]. apply zmem_false in H1, H2. rewrite H1, H2. reflexivity.
Qed.
Print Assumptions C07_stacked_shock_cell_kept.

(* 2d. "still satisfies the equations" and "swap inverts" for stacked_time are C06_stacked_zero_iff_all_zero (a frame
       that passes the solver's test satisfies every equation in every column, on the swapped unknowns) and
       C06_linear_agrees (a non-singular stacked Jacobian has one zero: the path it was generated from); they are
       stated over the reals in props/C06.v and are not repeated here. *)

(* 3. method first_order: conditional simulation = Kalman smoother with noiseless observations *)
From mathcomp Require Import all_ssreflect all_algebra.
From Verif.lib Require Import MatMC MatLemmas.
From Verif.proofs Require Import KalmanProofs SmootherProofs PlansProofs.
From Verif.lib Require Import PlansFord.
From Verif.model Require Ford.
From Verif.proofs Require FordProofs FordSimProofs.
Set Implicit Arguments.
Unset Strict Implicit.
Import GRing.Theory.
Local Open Scope ring_scope.

Section C07.
(* any real field; any sizes: n = length of the transition vector, nu transition shocks, nw measurement shocks;
   any positions curr of the current-dated variables in the transition vector *)
Variable F : realFieldType.
Variables (flog : F -> F) (flog2pi : F).
Notation M := (MC flog flog2pi).
Variables n nu nw : nat.
Variable curr : seq nat.
(* any first-order solution (T, P, K), any expansion Rx[k] of the anticipated shocks, any input anticipated shocks vs
   (one column per simulated column), any incidence inc of the endogenized anticipated cells (date-major),
   any initial condition a0, any standard deviations, any list of simulated columns cols (masks of exogenized
   variables, their input values, std of the endogenized unanticipated shocks (0 elsewhere), input shocks) *)
Variable s : csys M n nu.
Variable Rx : nat -> 'M[F]_(n, nu).
Variable vs : seq 'cV[F]_nu.
Variable inc : incidence.
Variables (a0 : 'cV[F]_n) (std_v : seq F) (cols : seq (ccol M nu nw curr)).

Notation l := (run_l s Rx vs inc a0 std_v cols).         (* = cond_run ...: the smoothed periods *)
Notation fs := (run_fs s Rx vs inc a0 std_v cols).       (* the forward pass *)
Notation oxi := (@out_xi M n nw inc).
Notation ocurr := (@out_curr M n nw curr inc).
Notation ovs := (@out_vs M n nu nw vs inc).
Notation outu := (@out_u F flog flog2pi n nu nw inc).

(* 3a. exogenized_hit: every exogenized variable equals its input value in every exogenized column (corollary of
       C08_smooth_reproduces_data with H = 0), provided every prediction MSE matrix F_t is invertible *)
Theorem C07_exogenized_hit : all_unit fs ->
  pall (fun c x => forall k : 'I_(length curr), nth false (c_mask c) k -> ocurr x k ord0 = c_target c k ord0) cols l.
Proof.
move=> uF; apply: pall_impl (run_hit uF) => c x /mc_sel_eq_rows h k /h /rowP/(_ ord0).
by rewrite !mxE.
Qed.

(* ... the value written for the k-th current-dated variable is its entry of the smoothed transition vector *)
Theorem C07_stored_value_is_transition_entry : forall (x : sper M (n + nv_of inc) nw) (k : 'I_(length curr)) (r : 'I_n),
  nth 0%N curr k = r -> ocurr x k ord0 = oxi x r ord0.
Proof. by move=> x k r E; rewrite /out_curr /= (mc_rows_entry _ _ E). Qed.

(* 3b. only_endogenized_change: a transition shock whose std in the column is 0 (not endogenized there) keeps its input
       value, measurement shocks keep their input values, and the anticipated shocks change only on the incidence *)
Theorem C07_only_endogenized_change : size vs = size inc ->
  pall (fun c x => (forall i : 'I_nu, nth 0 (c_std_u c) i = 0 -> outu x i ord0 = c_u0 c i ord0)
                   /\ s_w (so x) = c_w0 c) cols l
  /\ (forall k (j : 'I_nu), ~~ nth false (nth [::] inc k) j -> nth 0 (ovs l) k j ord0 = nth 0 vs k j ord0).
Proof. exact: run_changes_only_endogenized. Qed.

(* 3c. still_a_simulation: the returned transition vectors are the ordinary first-order simulation (simulate_flat:
       xi_t = T xi_{t-1} + K + P u_t + sum_{s>=t} Rx[s-t] v_s, the recursion C01 proves to satisfy the model equations)
       of the returned shocks from the given initial condition *)
Theorem C07_still_a_simulation : size vs = size inc ->
  [seq oxi x | x <- l] = flat_path s (@ant_impact M n nu Rx (ovs l)) 0 a0 [seq outu x | x <- l].
Proof. exact: run_is_simulation. Qed.

(* ... which rests on: the transition block _generate_R builds for the augmented state is the anticipated impact of
       the endogenized values spread over their (shock, date) cells *)
Theorem C07_generate_R_is_anticipated_impact : forall t i (ic : incidence) (v : 'cV[F]_(nv_of ic)),
  @gen_R M n nu Rx t i ic *m v = @imp_sum M n nu Rx t i (@dv_list M nu ic v).
Proof. exact: gen_R_mul. Qed.

(* 3d. swap_inverts: if the inputs off the endogenized cells are those of an ordinary simulation driven by ustar
       (unanticipated) and vs + spread(vstar) (anticipated), the targets are that simulation's values, and the impact
       map from the endogenized cells to the exogenized cells is non-singular, then the conditional simulation
       returns the driving shocks and the whole path *)
Theorem C07_swap_inverts : forall (ustar : seq 'cV[F]_nu) (vstar : 'cV[F]_(nv_of inc)),
  size vs = size inc -> size cols = size inc -> size ustar = size cols ->
  all_unit fs -> impact_nonsingular s Rx inc cols ->
  pall2 (fun c (u : 'cV[F]_nu) => forall i : 'I_nu, nth 0 (c_std_u c) i = 0 -> u i ord0 = c_u0 c i ord0) cols ustar ->
  let vsstar := @add_cols M nu vs (@dv_list M nu inc vstar) in
  let xistar := flat_path s (@ant_impact M n nu Rx vsstar) 0 a0 ustar in
  pall2 (fun c (xi : 'cV[F]_n) => mc_sel (c_mask c) (c_target c) = at_targets c xi) cols xistar ->
  [/\ [seq outu x | x <- l] = ustar, ovs l = vsstar & [seq oxi x | x <- l] = xistar].
Proof. exact: run_inverts_swap. Qed.

(* what all_unit asks of the first simulated column: the exogenized rows of R Sigma_v R' + P Sigma_u P' form an
   invertible matrix (R = _generate_R(0); Sigma_v, Sigma_u = variances of the endogenized anticipated / unanticipated
   shocks): some endogenized shock must move every exogenized variable of that column *)
Theorem C07_first_column_F : forall (c : ccol M nu nw curr),
  let Zs := mc_sel (c_mask c) (Z_xi M n curr) in
  f_F (@kf_step M (n + nv_of inc) nw (@aug_init_med M n inc a0) (@aug_init_mse M n inc std_v)
                (@aug_period M n nu nw curr s Rx vs inc 0 c))
  = Zs *m (@gen_R M n nu Rx 0 0 inc *m cov_from_std M (nv_of inc) std_v *m (@gen_R M n nu Rx 0 0 inc)^T
           + cs_P s *m cov_from_std M nu (c_std_u c) *m (cs_P s)^T) *m Zs^T.
Proof. exact: first_F. Qed.

End C07.

(* 3e. ... "hence by C01 the model equations": with the expansion Rx[k] the code uses (Rx[0] = P, Rx[k] = -X J^(k-1) Ru),
       the returned transition vectors are exactly the recursion model/Ford.v::flat_run with
       model/Ford.v::anticipated_impacts -- the model of simulate_flat about which C01_square_solves_system proves that
       every simulated period satisfies the unsolved model equations -- driven by the RETURNED shocks *)
Theorem C07_result_is_C01_simulation :
  forall (F : realFieldType) (flog : F -> F) (flog2pi : F) (n nu nf nw : nat) (curr : seq nat)
         (T : 'M[F]_n) (P : 'M[F]_(n, nu)) (K : 'cV[F]_n) (X : 'M[F]_(n, nf)) (J : 'M[F]_nf) (Ru : 'M[F]_(nf, nu))
         (vs : seq 'cV[F]_nu) (inc : incidence) (a0 : 'cV[F]_n) (std_v : seq F)
         (cols : seq (ccol (MC flog flog2pi) nu nw curr)),
  let M := MC flog flog2pi in
  let s := @mkCsys M n nu T P K in
  let Rx := @expand_at M n nu nf P X J Ru in
  size vs = size inc -> size cols = size inc ->
  let l := run_l s Rx vs inc a0 std_v cols in
  [seq @out_xi M n nw inc x | x <- l]
  = @Ford.flat_run (FordProofs.MCOps F) n nu T K P a0 [seq @out_u F flog flog2pi n nu nw inc x | x <- l]
      (@Ford.anticipated_impacts (FordProofs.MCOps F) n nf nu P X J Ru (@out_vs M n nu nw vs inc l)).
Proof.
move=> F flog flog2pi n nu nf nw curr T P K X J Ru vs inc a0 std_v cols M s Rx szv szc l.
by rewrite /l run_is_simulation // flat_path_is_C01 // size_map run_size size_run_vs // szc.
Qed.

(* ... the anticipated impact of 3c is the one C01 characterises: P v_t - X a_t, a_t = sum_{k>=1} J^(k-1) Ru v_{t+k} *)
Theorem C07_anticipated_impact_is_C01 :
  forall (F : realFieldType) (flog : F -> F) (flog2pi : F) (n nu nf : nat)
         (P : 'M[F]_(n, nu)) (X : 'M[F]_(n, nf)) (J : 'M[F]_nf) (Ru : 'M[F]_(nf, nu)) (vs : seq 'cV[F]_nu) (t : nat),
  (t < size vs)%N ->
  @ant_impact (MC flog flog2pi) n nu (@expand_at (MC flog flog2pi) n nu nf P X J Ru) vs t
  = P *m nth 0 vs t - X *m @FordSimProofs.ant F nf nu J Ru (drop t.+1 vs).
Proof. move=> F flog flog2pi n nu nf P X J Ru vs t; exact: ant_impact_is_C01. Qed.

(* non-vacuity: x_t = rho x_{t-1} + e_t over any real field, one simulated period in which x is exogenized (any
   target tau) and e endogenized: every hypothesis of 3a-3d holds (sizes, invertible F, non-singular impact map) *)
Example C07_hypotheses_satisfiable (F : realFieldType) (flog : F -> F) (flog2pi rho tau : F) :
  let cols := [:: ex_col flog flog2pi tau] in
  [/\ size (ex_vs F) = size ex_inc, size cols = size ex_inc,
      all_unit (run_fs (ex_s flog flog2pi rho) (ex_Rx F) (ex_vs F) ex_inc 0 [::] cols) &
      impact_nonsingular (ex_s flog flog2pi rho) (ex_Rx F) ex_inc cols].
Proof. exact: ex_hypotheses. Qed.

Print Assumptions C07_exogenized_hit.
Print Assumptions C07_stored_value_is_transition_entry.
Print Assumptions C07_only_endogenized_change.
Print Assumptions C07_still_a_simulation.
Print Assumptions C07_generate_R_is_anticipated_impact.
Print Assumptions C07_swap_inverts.
Print Assumptions C07_first_column_F.
Print Assumptions C07_result_is_C01_simulation.
Print Assumptions C07_anticipated_impact_is_C01.
