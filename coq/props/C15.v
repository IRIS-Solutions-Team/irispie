(* C15  Model-implied autocovariances solve the solved model's Lyapunov equation.
   The lemmas are in proofs/AcovProofs.v, stated there for arbitrary shock covariances where the statements
   below have the diagonal ones of the model.

   The model (model/Acov.v) is the text of fords/covariances.py and of the glue in
   simultaneous/_covariances.py written over the abstract matrix interface lib/MxC15.v;
   here it is instantiated on MathComp matrices over ANY real closed field F
   ([McOps F]); the same text instantiated on exact dyadic numbers is what the
   correspondence run evaluates against Simultaneous.get_acov / get_acorr.

   Contracts (black boxes, premises of the theorems, checked numerically on every recorded call):
     lyap_contract sol Su X  :  X = Ta_stable X Ta_stable^T + Pa_stable Su Pa_stable^T
                                (output of scipy.linalg.solve_discrete_lyapunov), X^T = X;
     lyap_unique Ta          :  that equation has at most one solution (true for a stable Ta_stable;
                                MathComp has no spectral theory, so it is a premise where it is used);
     T Ua = Ua Ta, P = Ua Pa, Za = Z Ua, dlsubmx Ta = 0 : the square solution is the rotation of the
                                block-triangular one (fords/solutions.py; property C01).
   Dimensions: nu unit roots, ns stable roots, ny measurement variables, ne / nw shocks. *)
From mathcomp Require Import all_ssreflect all_algebra.
From Verif.lib Require Import MxC15.
From Verif.model Require Import Acov.
From Verif.proofs Require Import AcovProofs.
Import Order.TTheory GRing.Theory Num.Theory.
Local Open Scope ring_scope.

Notation cstd F := (cov_of_std (O:=McOps F)).

(* 1. order 0.  For every row selector L of transition variables that are not loaded on unit roots
      (L Ua[:, :nu] = 0) the reported covariance solves the Lyapunov equation of the SQUARE solution
      xi_t = T xi_(t-1) + P u_t; the measurement block and the cross terms are Z Gxx Z' + H Sw H',
      Gxx Z', Z Gxx. *)
Theorem C15_order0_solves_square_lyapunov :
  forall (F : rcfType) (nu ns ny ne nw : nat)
    (Ta : 'M[F]_(nu + ns)) (Pa : 'M[F]_(nu + ns, ne)) (Za : 'M[F]_(ny, nu + ns)) (H : 'M[F]_(ny, nw))
    (Ua : 'M[F]_(nu + ns)) (tol : F) (std_u : 'rV[F]_ne) (std_w : 'rV[F]_nw) (X : 'M[F]_ns),
  lyap_contract (sol Ta Pa Za H Ua tol) (cstd F std_u) X -> X^T = X ->
  forall (k : nat) (T : 'M[F]_(nu + ns)) (P : 'M[F]_(nu + ns, ne)) (Z : 'M[F]_(ny, nu + ns)),
  T *m Ua = Ua *m Ta -> P = Ua *m Pa -> Za = Z *m Ua -> dlsubmx Ta = 0 ->
  let G := nth 0 (autocov_square_00 (sol Ta Pa Za H Ua tol) (cstd F std_w) X k) 0 in
  (forall m (L : 'M[F]_(m, nu + ns)), L *m lsubmx Ua = 0 ->
     L *m ulsubmx G *m L^T = L *m (T *m ulsubmx G *m T^T + P *m cstd F std_u *m P^T) *m L^T) /\
  drsubmx G = Z *m ulsubmx G *m Z^T + H *m cstd F std_w *m H^T /\
  ursubmx G = ulsubmx G *m Z^T /\ dlsubmx G = Z *m ulsubmx G.
Proof. by move=> *; exact: order0_square. Qed.
Print Assumptions C15_order0_solves_square_lyapunov.

(* 1'. stationary model (no unit roots): the full equation, and the order recursion with the square
       companion matrix Asq = [[T, 0], [Z T, 0]] of [xi; y] *)
Theorem C15_stationary_model :
  forall (F : rcfType) (ns ny ne nw : nat)
    (Ta : 'M[F]_(0 + ns)) (Pa : 'M[F]_(0 + ns, ne)) (Za : 'M[F]_(ny, 0 + ns)) (H : 'M[F]_(ny, nw))
    (Ua : 'M[F]_(0 + ns)) (tol : F) (std_u : 'rV[F]_ne) (std_w : 'rV[F]_nw) (X : 'M[F]_ns),
  lyap_contract (sol Ta Pa Za H Ua tol) (cstd F std_u) X -> X^T = X ->
  forall (k j : nat) (T : 'M[F]_(0 + ns)) (P : 'M[F]_(0 + ns, ne)) (Z : 'M[F]_(ny, 0 + ns)),
  T *m Ua = Ua *m Ta -> P = Ua *m Pa -> Za = Z *m Ua -> (j < k)%N ->
  let G := fun j => nth 0 (autocov_square_00 (sol Ta Pa Za H Ua tol) (cstd F std_w) X k) j in
  let Gxx := ulsubmx (G 0%N) in
  Gxx = T *m Gxx *m T^T + P *m cstd F std_u *m P^T /\
  G j.+1 = Asq T Z *m G j.
Proof. by move=> *; exact: stationary. Qed.
Print Assumptions C15_stationary_model.

(* 1''. the order-0 matrix of the triangular system [alpha; y] is the stationary covariance of
        s_t = A s_(t-1) + E [u_t; w_t]  (unit-root part of alpha switched off) *)
Theorem C15_order0_triangular_stationary :
  forall (F : rcfType) (nu ns ny ne nw : nat)
    (Ta : 'M[F]_(nu + ns)) (Pa : 'M[F]_(nu + ns, ne)) (Za : 'M[F]_(ny, nu + ns)) (H : 'M[F]_(ny, nw))
    (Ua : 'M[F]_(nu + ns)) (tol : F) (std_u : 'rV[F]_ne) (std_w : 'rV[F]_nw) (X : 'M[F]_ns),
  lyap_contract (sol Ta Pa Za H Ua tol) (cstd F std_u) X -> X^T = X ->
  forall k : nat,
  let G0 := nth 0 (autocov_triangular_00 (sol Ta Pa Za H Ua tol) (cstd F std_w) X k) 0 in
  let A := A_tri (sol Ta Pa Za H Ua tol) in
  G0 = A *m G0 *m A^T + Emx Pa Za H *m Sigma (cstd F std_u) (cstd F std_w) *m (Emx Pa Za H)^T.
Proof. by move=> *; exact: order0_triangular. Qed.
Print Assumptions C15_order0_triangular_stationary.

(* 2. order j: G_(j+1) = A G_j, G_j = A^j G_0, and the square matrices are the rotation by diag(Ua, I) *)
Theorem C15_order_j :
  forall (F : rcfType) (nu ns ny ne nw : nat)
    (Ta : 'M[F]_(nu + ns)) (Pa : 'M[F]_(nu + ns, ne)) (Za : 'M[F]_(ny, nu + ns)) (H : 'M[F]_(ny, nw))
    (Ua : 'M[F]_(nu + ns)) (tol : F) (std_w : 'rV[F]_nw) (X : 'M[F]_ns) (k j : nat), (j < k)%N ->
  let Gt := fun j => nth 0 (autocov_triangular_00 (sol Ta Pa Za H Ua tol) (cstd F std_w) X k) j in
  let Gs := fun j => nth 0 (autocov_square_00 (sol Ta Pa Za H Ua tol) (cstd F std_w) X k) j in
  let A := A_tri (sol Ta Pa Za H Ua tol) in
  Gt j.+1 = A *m Gt j /\ Gt j = iter j (mulmx A) (Gt 0%N) /\
  Gs j = @Wm F nu ns ny Ua *m Gt j *m (@Wm F nu ns ny Ua)^T.
Proof. by move=> *; exact: order_j. Qed.
Print Assumptions C15_order_j.

(* 2'. in terms of the square solution: on every combination Lf of [xi; y] that carries no unit root
       (Lf [Ua[:, :nu]; Za[:, :nu]] = 0) order j+1 is the square companion matrix times order j *)
Theorem C15_order_j_square :
  forall (F : rcfType) (nu ns ny ne nw : nat)
    (Ta : 'M[F]_(nu + ns)) (Pa : 'M[F]_(nu + ns, ne)) (Za : 'M[F]_(ny, nu + ns)) (H : 'M[F]_(ny, nw))
    (Ua : 'M[F]_(nu + ns)) (tol : F) (std_w : 'rV[F]_nw) (X : 'M[F]_ns) (k j : nat)
    (T : 'M[F]_(nu + ns)) (Z : 'M[F]_(ny, nu + ns)) m (Lf : 'M[F]_(m, nu + ns + ny)),
  T *m Ua = Ua *m Ta -> Za = Z *m Ua -> dlsubmx Ta = 0 -> (j < k)%N ->
  Lf *m Uload Za Ua = 0 ->
  let Gs := fun j => nth 0 (autocov_square_00 (sol Ta Pa Za H Ua tol) (cstd F std_w) X k) j in
  Lf *m Gs j.+1 = Lf *m Asq T Z *m Gs j.
Proof. by move=> *; exact: order_j_square. Qed.
Print Assumptions C15_order_j_square.

(* 2''. cov(x_(t+j), x_t) of a linear process.  Random vectors are represented by their loadings on N
        uncorrelated unit-variance primitive shocks (cov X Y = X Y^T, so bilinearity is matrix algebra):
        if x_(t+1) = A x_t + e_(t+1), the innovations have covariance Q and are uncorrelated with the
        past, and the initial covariance G0 solves G0 = A G0 A' + Q, then the variance is G0 at every
        date and the lag-j autocovariance is A^j G0 (induction on t and j; any horizon Tmax). *)
Theorem C15_linear_process_autocov :
  forall (F : rcfType) (n N : nat) (A Q G0 : 'M[F]_n) (Tmax : nat) (x e : nat -> 'M[F]_(n, N)),
  (forall t, (t < Tmax)%N -> x t.+1 = A *m x t + e t.+1) ->
  (forall t s, (s <= t)%N -> (t < Tmax)%N -> cov (e t.+1) (x s) = 0) ->
  (forall t, (t < Tmax)%N -> cov (e t.+1) (e t.+1) = Q) ->
  cov (x 0%N) (x 0%N) = G0 -> G0 = A *m G0 *m A^T + Q ->
  forall t j, (t + j <= Tmax)%N ->
    cov (x t) (x t) = G0 /\ cov (x (t + j)%N) (x t) = iter j (mulmx A) G0.
Proof.
exact (fun F n N A Q G0 Tmax x e H1 H2 H3 H4 H5 t j tj =>
  conj (process_variance H1 H2 H3 H4 H5 (leq_trans (leq_addr j t) tj)) (process_autocov H1 H2 H3 H4 H5 tj)).
Qed.
Print Assumptions C15_linear_process_autocov.

(* ... and the model's order-j output IS that autocovariance, for the triangular system and, rotated, for
   the square one (xi = Ua alpha) *)
Theorem C15_order_j_is_process_autocov :
  forall (F : rcfType) (nu ns ny ne nw : nat)
    (Ta : 'M[F]_(nu + ns)) (Pa : 'M[F]_(nu + ns, ne)) (Za : 'M[F]_(ny, nu + ns)) (H : 'M[F]_(ny, nw))
    (Ua : 'M[F]_(nu + ns)) (tol : F) (Su : 'M[F]_ne) (Sw : 'M[F]_nw) (X : 'M[F]_ns),
  lyap_contract (sol Ta Pa Za H Ua tol) Su X -> X^T = X ->
  forall (N Tmax : nat) (x e : nat -> 'M[F]_(nu + ns + ny, N)),
  (forall t, (t < Tmax)%N -> x t.+1 = A_tri (sol Ta Pa Za H Ua tol) *m x t + e t.+1) ->
  (forall t s, (s <= t)%N -> (t < Tmax)%N -> cov (e t.+1) (x s) = 0) ->
  (forall t, (t < Tmax)%N -> cov (e t.+1) (e t.+1) = Qe Pa Za H Su Sw) ->
  cov (x 0%N) (x 0%N) = cov_triangular_00 (sol Ta Pa Za H Ua tol) Sw X ->
  forall t j k, (t + j <= Tmax)%N -> (j <= k)%N ->
    cov (x (t + j)%N) (x t) = nth 0 (autocov_triangular_00 (sol Ta Pa Za H Ua tol) Sw X k) j /\
    cov (@Wm F nu ns ny Ua *m x (t + j)%N) (@Wm F nu ns ny Ua *m x t) =
      nth 0 (autocov_square_00 (sol Ta Pa Za H Ua tol) Sw X k) j.
Proof.
move=> F nu ns ny ne nw Ta Pa Za H Ua tol Su Sw X HX Xs N Tmax x e Hrec Horth Hinn Hinit t j k tj jk.
rewrite nth_autocov_triangular_00 // nth_autocov_square_00 // covMl covMr /Gsq mulmxA.
by rewrite (process_autocov Hrec Horth Hinn Hinit (tri_lyap Sw HX Xs) tj).
Qed.
Print Assumptions C15_order_j_is_process_autocov.

(* 3. NaN mask and selection of the current-dated rows: entry (a, b) of every order of getv_autocov is
      NaN exactly when row s a or column s b is loaded on a unit root (some |Ua[i, c]| or |Za[i, c]|,
      c < nu, above the tolerance), and the unmasked number otherwise *)
Theorem C15_unit_root_rows_nan :
  forall (F : rcfType) (nu ns ny ne nw : nat)
    (Ta : 'M[F]_(nu + ns)) (Pa : 'M[F]_(nu + ns, ne)) (Za : 'M[F]_(ny, nu + ns)) (H : 'M[F]_(ny, nw))
    (Ua : 'M[F]_(nu + ns)) (tol : F) (std_w : 'rV[F]_nw) (X : 'M[F]_ns)
    (kk : nat) (s : 'I_kk -> 'I_(nu + ns + ny)) (k j : nat) (a b : 'I_kk), (j <= k)%N ->
  nth (const_mx None) (getv_autocov (sol Ta Pa Za H Ua tol) s std_w X k) j a b =
    if loaded Za Ua tol (s a) || loaded Za Ua tol (s b) then None
    else Some (nth 0 (autocov_square_00 (sol Ta Pa Za H Ua tol) (cstd F std_w) X k) j (s a) (s b)).
Proof. by move=> *; exact: masked_entries. Qed.
Print Assumptions C15_unit_root_rows_nan.

Theorem C15_loaded_iff :
  forall (F : rcfType) (nu ns ny : nat) (Za : 'M[F]_(ny, nu + ns)) (Ua : 'M[F]_(nu + ns)) (tol : F) (i : 'I_(nu + ns + ny)),
  loaded Za Ua tol i = [exists c : 'I_nu, tol < `|col_mx (lsubmx Ua) (lsubmx Za) i c|].
Proof. exact (fun F nu ns ny Za Ua tol i => erefl _). Qed.
Print Assumptions C15_loaded_iff.

(* 4. scaling every standard deviation by c scales every autocovariance by c^2 (linearity + the
      uniqueness contract of the Lyapunov solver) *)
Theorem C15_scale_square :
  forall (F : rcfType) (nu ns ny ne nw : nat)
    (Ta : 'M[F]_(nu + ns)) (Pa : 'M[F]_(nu + ns, ne)) (Za : 'M[F]_(ny, nu + ns)) (H : 'M[F]_(ny, nw))
    (Ua : 'M[F]_(nu + ns)) (tol : F) (c : F) (std_u : 'rV[F]_ne) (std_w : 'rV[F]_nw) (X X' : 'M[F]_ns),
  lyap_unique Ta ->
  lyap_contract (sol Ta Pa Za H Ua tol) (cstd F std_u) X ->
  lyap_contract (sol Ta Pa Za H Ua tol) (cstd F (c *: std_u)) X' ->
  forall (k j : nat), (j <= k)%N ->
  nth 0 (autocov_square_00 (sol Ta Pa Za H Ua tol) (cstd F (c *: std_w)) X' k) j =
    c ^+ 2 *: nth 0 (autocov_square_00 (sol Ta Pa Za H Ua tol) (cstd F std_w) X k) j.
Proof. exact @scale_square. Qed.
Print Assumptions C15_scale_square.

Theorem C15_scale_square_reported :
  forall (F : rcfType) (nu ns ny ne nw : nat)
    (Ta : 'M[F]_(nu + ns)) (Pa : 'M[F]_(nu + ns, ne)) (Za : 'M[F]_(ny, nu + ns)) (H : 'M[F]_(ny, nw))
    (Ua : 'M[F]_(nu + ns)) (tol : F) (c : F) (std_u : 'rV[F]_ne) (std_w : 'rV[F]_nw) (X X' : 'M[F]_ns),
  lyap_unique Ta ->
  lyap_contract (sol Ta Pa Za H Ua tol) (cstd F std_u) X ->
  lyap_contract (sol Ta Pa Za H Ua tol) (cstd F (c *: std_u)) X' ->
  forall (kk : nat) (s : 'I_kk -> 'I_(nu + ns + ny)) (k j : nat) (a b : 'I_kk), (j <= k)%N ->
  nth (const_mx None) (getv_autocov (sol Ta Pa Za H Ua tol) s (c *: std_w) X' k) j a b =
    omap (fun v => c ^+ 2 * v) (nth (const_mx None) (getv_autocov (sol Ta Pa Za H Ua tol) s std_w X k) j a b).
Proof.
move=> F nu ns ny ne nw Ta Pa Za H Ua tol c std_u std_w X X' Hu HX HX' kk s k j a b jk.
rewrite [LHS]masked_entries // [in RHS]masked_entries // [in LHS](scale_square std_w Hu HX HX' jk) mxE.
by case: (_ || _).
Qed.
Print Assumptions C15_scale_square_reported.

(* under the uniqueness contract the solver's output is symmetric, so X^T = X above is not an extra
   assumption on a correct solver *)
Theorem C15_lyapunov_output_symmetric :
  forall (F : rcfType) (nu ns ny ne nw : nat)
    (Ta : 'M[F]_(nu + ns)) (Pa : 'M[F]_(nu + ns, ne)) (Za : 'M[F]_(ny, nu + ns)) (H : 'M[F]_(ny, nw))
    (Ua : 'M[F]_(nu + ns)) (tol : F) (Su : 'M[F]_ne) (X : 'M[F]_ns),
  lyap_unique Ta -> Su^T = Su -> lyap_contract (sol Ta Pa Za H Ua tol) Su X -> X^T = X.
Proof.
move=> F nu ns ny ne nw Ta Pa Za H Ua tol Su X Hu Ss HX.
apply: (Hu (dsubmx Pa *m Su *m (dsubmx Pa)^T)); last exact: HX.
by rewrite {1}HX linearD /= !trmx_mul !trmxK Ss !mulmxA.
Qed.
Print Assumptions C15_lyapunov_output_symmetric.

(* 5. acorr_from_acov: every order is the autocovariance divided by the two order-0 standard
      deviations; NaN stays NaN; the diagonal of order 0 is 1; invariant under the scaling of 4. *)
Theorem C15_acorr_scaling :
  forall (F : rcfType) (kk : nat) (c0 : 'M[option F]_kk) (l : seq 'M[option F]_kk) (j : nat) (a b : 'I_kk) (va vb v : F),
  (j < size (c0 :: l))%N -> c0 a a = Some va -> c0 b b = Some vb -> 0 < va -> 0 < vb ->
  nth (const_mx None) (c0 :: l) j a b = Some v ->
  nth (const_mx None) (acorr_from_acov (O:=McOps F) (c0 :: l)) j a b = Some (v / (Num.sqrt va * Num.sqrt vb)).
Proof. exact @acorr_scaling. Qed.
Print Assumptions C15_acorr_scaling.

Theorem C15_acorr_entries :
  forall (F : rcfType) (kk : nat) (c0 : 'M[option F]_kk) (l : seq 'M[option F]_kk) (j : nat) (a b : 'I_kk),
  (j < size (c0 :: l))%N ->
  size (acorr_from_acov (O:=McOps F) (c0 :: l)) = size (c0 :: l) /\
  nth (const_mx None) (acorr_from_acov (O:=McOps F) (c0 :: l)) j a b =
    omap (fun v => v * (inv_std (c0 a a) * inv_std (c0 b b))) (nth (const_mx None) (c0 :: l) j a b).
Proof. exact (fun F kk c0 l j a b jl => conj (size_acorr (c0 :: l)) (acorr_entries a b jl)). Qed.
Print Assumptions C15_acorr_entries.

Theorem C15_acorr_diag_one :
  forall (F : rcfType) (kk : nat) (c0 : 'M[option F]_kk) (l : seq 'M[option F]_kk) (a : 'I_kk) (va : F),
  c0 a a = Some va -> 0 < va ->
  nth (const_mx None) (acorr_from_acov (O:=McOps F) (c0 :: l)) 0 a a = Some 1.
Proof.
move=> F kk c0 l a va Ha pa; rewrite (@acorr_scaling _ _ c0 l 0%N a a va va va) //; congr Some.
rewrite -expr2 sqr_sqrtr; last exact: ltW.
by rewrite divff // lt0r_neq0.
Qed.
Print Assumptions C15_acorr_diag_one.

Theorem C15_acorr_scale_invariant :
  forall (F : rcfType) (kk : nat) (s : F) (c0 : 'M[option F]_kk) (l : seq 'M[option F]_kk) (c0' : 'M[option F]_kk)
    (l' : seq 'M[option F]_kk), s != 0 -> size l' = size l ->
  (forall j a b, nth (const_mx None) (c0' :: l') j a b =
                 omap (fun v => s ^+ 2 * v) (nth (const_mx None) (c0 :: l) j a b)) ->
  forall j a b, (j < size (c0 :: l))%N ->
  nth (const_mx None) (acorr_from_acov (O:=McOps F) (c0' :: l')) j a b =
  nth (const_mx None) (acorr_from_acov (O:=McOps F) (c0 :: l)) j a b.
Proof.
move=> F kk s c0 l c0' l' s0 sz H j a b jl.
rewrite !acorr_entries //=; last by rewrite sz.
rewrite (H j a b) (H 0%N a a) (H 0%N b b) /= !inv_std_scale //.
set o := fun_of_matrix (nth _ _ _) a b; case: o => //= v; congr Some.
have -> : s ^+ 2 = `|s| ^+ 2 by rewrite real_normK // num_real.
by rewrite [X in _ * X]mulrACA -invfM -expr2 mulrACA divff ?mul1r // expf_neq0 // normr_eq0.
Qed.
Print Assumptions C15_acorr_scale_invariant.

(* non-vacuity: a system with one unit root and one stable root (Ta = [[1, 1], [0, 1/2]], X = 4/3)
   meets every contract used above, with a non-zero covariance *)
Example C15_hypotheses_satisfiable : forall F : rcfType,
  lyap_unique (exTa F) /\
  lyap_contract (sol (exTa F) (exPa F) (exZa F) 1%:M 1%:M 0) (cstd F (exstd F)) (exX F) /\
  (exX F)^T = exX F /\ exX F != 0 /\ dlsubmx (exTa F) = 0 /\
  exTa F *m 1%:M = 1%:M *m exTa F /\ exPa F = 1%:M *m exPa F /\ exZa F = exZa F *m 1%:M.
Proof.
move=> F; split; first exact: ex_unique.
split; first exact: ex_contract.
by rewrite ex_sym ex_nonzero ex_tri !mulmx1 !mul1mx.
Qed.
