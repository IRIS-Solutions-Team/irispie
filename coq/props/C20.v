(* C20  Copies, pickles and parameter variants are independent, equivalent models.
   The lemmas are in proofs/HeapProofs.v (part 1), proofs/VariantsProofs.v (part 2) and proofs/PortableProofs.v (part 3);
   the theorems below are instances of them or are put together from them here.

   What is a theorem here
     1. independence: on a heap in which the verified checker finds no mutable object reachable from both
        roots, no sequence (and no interleaving) of in-place modifications and allocations by the holder of
        one root changes anything observable from the other root;
     2. variants: every history of assign (exhaust-then-last broadcasting) / per-variant operations /
        alter_num_variants acts on variant k exactly as the projected history acts on a single-variant model;
     3. the portable codec (names, kinds, log status, descriptions, equations, flags, context names,
        per-variant level/change values) round-trips.
   What is NOT a theorem (checked differentially by harness/C20.py against the same implementation):
     "a copy / pickle behaves identically in steady state, solution, simulation" and that the real
     solve/steady/simulate are per-variant functions; the real object graphs are extracted by the harness
     (mutability by type) and fed to the checker of part 1. *)
From Coq Require Import ZArith List Bool PArith Lia.
From Verif Require Import model.Heap model.Variants model.Portable
     proofs.HeapProofs proofs.VariantsProofs proofs.PortableProofs.
Import ListNotations.

(* ------------------------------------------------------------------ 1. independence *)

Theorem C20_checker_sound : forall (m : hmap) (r1 r2 : loc),
  no_shared_mutable m r1 r2 = true ->
  forall g' R', steps (sem m, [r1]) (g', R') ->
    (forall l, reach (sem m) r2 l -> g' l = sem m l) /\
    (forall n, unfold n g' r2 = unfold n (sem m) r2) /\
    (forall T (obs : heap -> loc -> T), local_obs obs -> obs g' r2 = obs (sem m) r2).
Proof. exact checker_sound. Qed.
Print Assumptions C20_checker_sound.

Theorem C20_checker_sound_symmetric : forall (m : hmap) (r1 r2 : loc),
  no_shared_mutable m r1 r2 = true ->
  forall g' R', steps (sem m, [r2]) (g', R') ->
    (forall l, reach (sem m) r1 l -> g' l = sem m l) /\
    (forall n, unfold n g' r1 = unfold n (sem m) r1) /\
    (forall T (obs : heap -> loc -> T), local_obs obs -> obs g' r1 = obs (sem m) r1).
Proof. exact (fun m r1 r2 H g' R' Hs => inv_frame _ _ _ (inv_sym _ _ _ (checker_inv m r1 r2 H)) g' R' Hs r1 (or_introl eq_refl)). Qed.
Print Assumptions C20_checker_sound_symmetric.

(* all interleavings of the two parties *)
Theorem C20_checker_sound_interleaved : forall (m : hmap) (r1 r2 : loc),
  no_shared_mutable m r1 r2 = true ->
  forall g R1 R2, asteps (sem m, [r1], [r2]) (g, R1, R2) ->
    (forall g' R1', step (g, R1) (g', R1') ->
       forall r, In r R2 -> forall T (obs : heap -> loc -> T), local_obs obs -> obs g' r = obs g r) /\
    (forall g' R2', step (g, R2) (g', R2') ->
       forall r, In r R1 -> forall T (obs : heap -> loc -> T), local_obs obs -> obs g' r = obs g r).
Proof. exact (fun m r1 r2 H => inv_interleaved _ _ _ (checker_inv m r1 r2 H)). Qed.
Print Assumptions C20_checker_sound_interleaved.

(* projection (non-interference in the classical sense): after any interleaving, each party sees exactly what it
   would see had it run alone *)
Theorem C20_checker_sound_projection : forall (m : hmap) (r1 r2 : loc),
  no_shared_mutable m r1 r2 = true ->
  forall g R1 R2, asteps (sem m, [r1], [r2]) (g, R1, R2) ->
  (exists h, steps (sem m, [r2]) (h, R2) /\
             (forall x, acc g R2 x -> h x = g x) /\
             (forall r, In r R2 -> forall T (obs : heap -> loc -> T), local_obs obs -> obs h r = obs g r)) /\
  (exists h, steps (sem m, [r1]) (h, R1) /\
             (forall x, acc g R1 x -> h x = g x) /\
             (forall r, In r R1 -> forall T (obs : heap -> loc -> T), local_obs obs -> obs h r = obs g r)).
Proof. exact (fun m r1 r2 H => inv_projection _ _ _ (checker_inv m r1 r2 H)). Qed.
Print Assumptions C20_checker_sound_projection.

(* unfolding the graph to any depth is a local observation *)
Theorem C20_unfold_is_local : forall n, local_obs (unfold n).
Proof. exact unfold_local. Qed.
Print Assumptions C20_unfold_is_local.

(* the guard cannot be dropped: a shared mutable object is written through; and it is satisfiable *)
Theorem C20_shared_mutable_interferes :
  no_shared_mutable ex_shared 1%positive 2%positive = false /\
  exists g' R', steps (sem ex_shared, [1%positive]) (g', R') /\
                unfold 2 g' 2%positive <> unfold 2 (sem ex_shared) 2%positive.
Proof.
  split; [vm_compute; reflexivity | ].
  exists (upd (sem ex_shared) 3%positive (mkNode 2 true [8%Z] [])), [1%positive]. split.
  - eapply steps_cons; [ | apply steps_nil].
    apply (write_child (sem ex_shared) 1%positive (mkNode 1 true [] [3%positive]) 3%positive (mkNode 2 true [7%Z] []));
      try reflexivity; [left; reflexivity | intros c []].
  - vm_compute. discriminate.
Qed.
Print Assumptions C20_shared_mutable_interferes.

Theorem C20_checker_nonvacuous :
  no_shared_mutable ex_copy 1%positive 2%positive = true /\
  exists g' R', step (sem ex_copy, [1%positive]) (g', R') /\ g' 3%positive <> sem ex_copy 3%positive.
Proof. exact (conj ex_copy_passes ex_copy_has_write). Qed.
Print Assumptions C20_checker_nonvacuous.

(* ------------------------------------------------------------------ 2. variants *)

(* broadcasting: zip(variants, exhaust_then_last(xs, d)) gives variant k the item xs[k], else the last item,
   else the default *)
Theorem C20_broadcast_exhaust_then_last : forall (V X : Type) (dv : V) (g : X -> V -> V) vs xs d k,
  k < length vs ->
  nth k (zip_stream V X g vs xs d) dv = g (etl X xs d k) (nth k vs dv) /\
  (k < length xs -> etl X xs d k = nth k xs d) /\
  (length xs <= k -> etl X xs d k = last xs d).
Proof.
  intros V X dv g vs xs d k H.
  exact (conj (zip_stream_nth V X dv g vs xs d k H) (conj (etl_in_range X xs d k) (etl_beyond X xs d k))).
Qed.
Print Assumptions C20_broadcast_exhaust_then_last.

(* alter_num_variants: n variants afterwards; variant k is old variant min(k, old-1): shrinking truncates,
   expanding repeats the last; it fails exactly for n = 0 on a non-empty model (or growing an empty one) *)
Theorem C20_alter_num_variants : forall (V : Type) (dv : V) n vs,
  (forall out, alter V dv n vs = Some out ->
     length out = n /\ forall k, k < n -> nth k out dv = nth (Nat.min k (length vs - 1)) vs dv) /\
  (alter V dv n vs = None <-> (n = 0 /\ vs <> []) \/ (vs = [] /\ 0 < n)) /\
  alter V dv (length vs) vs = Some vs.
Proof.
  intros V dv n vs. split; [ | split].
  - intros out H. split; [exact (alter_length V dv n vs out H) | intros k Hk; exact (alter_nth V dv n vs out k H Hk)].
  - exact (alter_fails_iff V dv n vs).
  - exact (alter_same V dv vs).
Qed.
Print Assumptions C20_alter_num_variants.

(* variant k after ANY history = its own single-variant history applied to its ancestor *)
Theorem C20_variant_pointwise : forall (I V X : Type) (dv : V) (assign1 : I -> X -> V -> V) i ops vs out k,
  run I V X dv assign1 i ops vs = Some out -> k < length out ->
  anc_run I V X ops (length vs) k < length vs /\
  nth k out dv = fun_run I V X assign1 i ops (length vs) k (nth (anc_run I V X ops (length vs) k) vs dv).
Proof.
  intros I V X dv assign1 i ops vs out k H Hk.
  exact (conj (anc_run_lt I V X dv assign1 i ops vs out k H Hk)
              (variant_pointwise_history I V X dv assign1 i ops vs out k H Hk)).
Qed.
Print Assumptions C20_variant_pointwise.

(* ... which is what a single-variant model computes when it is given variant k's own inputs *)
Theorem C20_variant_equals_singleton : forall (I V X : Type) (dv : V) (assign1 : I -> X -> V -> V) i ops vs out k,
  run I V X dv assign1 i ops vs = Some out -> k < length out ->
  run I V X dv assign1 i (project I V X ops (length vs) k) [nth (anc_run I V X ops (length vs) k) vs dv] = Some [nth k out dv].
Proof.
  intros I V X dv assign1 i ops vs out k H Hk.
  rewrite run_project_single, (variant_pointwise_history I V X dv assign1 i ops vs out k H Hk). reflexivity.
Qed.
Print Assumptions C20_variant_equals_singleton.

(* the property's pipeline: n variants, per-variant parameter values, then steady / solve / ... *)
Theorem C20_variant_k_pipeline : forall (I V X : Type) (dv : V) (assign1 : I -> X -> V -> V)
    i v0 n xs d (fs : list (I -> V -> V)) out k,
  run I V X dv assign1 i (OAlter n :: OAssign xs d :: map OMap fs) [v0] = Some out -> k < n ->
  nth k out dv = fold_left (fun v f => f i v) fs (assign1 i (etl X xs d k) v0).
Proof.
  intros I V X dv assign1 i v0 n xs d fs out k H Hk.
  destruct (maps_history I V X assign1 i fs n k (assign1 i (etl X xs d k) v0)) as (Hlen & Hanc & Hfun).
  rewrite (variant_pointwise_history I V X dv assign1 i _ _ _ k H) by (rewrite (run_length I V X dv assign1 i _ _ _ H); cbn; lia).
  cbn [fun_run anc_run len_after length single_op].
  rewrite !Hanc. cbn [anc_op]. rewrite Nat.min_0_r. exact Hfun.
Qed.
Print Assumptions C20_variant_k_pipeline.

(* ------------------------------------------------------------------ 3. portable representation *)

Theorem C20_portable_roundtrip : forall (N : Type) (m : mdesc N),
  wf_mdesc N m -> decode N (encode N m) = Some m.
Proof. exact portable_roundtrip. Qed.
Print Assumptions C20_portable_roundtrip.

(* the guard (no empty steady form) is needed by the code's `complement_human or human` *)
Theorem C20_portable_guard_needed : forall N : Type,
  exists e, dec_equation N (enc_equation N e) <> Some e.
Proof. exact equation_roundtrip_needs_guard. Qed.
Print Assumptions C20_portable_guard_needed.

(* quantities are listed kind by kind (every kind exactly once, in the order read from the source by the translator);
   listing again changes nothing and loses nothing *)
Theorem C20_portable_order_stable : forall qs,
  by_kind (by_kind qs) = by_kind qs /\ (forall q, In q (by_kind qs) <-> In q qs) /\
  (forall k, length (filter (qkind_eqb k) all_qkinds) = 1).
Proof. intros qs. exact (conj (by_kind_idempotent qs) (conj (by_kind_same_elements qs) all_qkinds_complete)). Qed.
Print Assumptions C20_portable_order_stable.
